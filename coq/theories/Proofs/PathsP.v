(* Proofs/PathsP.v — C17 (reported paths identify the element being processed, and stay that way).
   Module AliasP (over Abstract/PathsAlias.v):
     1. snapshot versus view.  An error carries a COPY of the path (`snapshot`, a list); a kept slice header
        read later is a `view`.  `later qs st st'` = the store after ANY sequence of further appends / visits
        started from the slice headers in qs.  The snapshot is the true path and, being a list, no later
        store enters it (snapshot_stable); a child's view is stable when every later writer uses another
        array or is at least as long (view_stable_general), in particular when the parent was full
        (view_stable_when_full), and it is NOT stable in general: with spare capacity at the parent the next
        sibling's append overwrites the child's last cell (view_refuted; hdrs_refuted is the same defect on a
        whole traversal that starts from the empty path under a doubling growth policy).  This is why errors
        must copy the path.
     2. sequential runs from one base context: every run taps the true paths of its own tree
        (runs_taps_true_paths, runs_independent).
   Module TapsP (over Model/MarshalTaps.v): a declarative account of the elements of a typed value
     (`elements`: a tree of nodes whose edges are labelled by the path element they add, if any) and the one
     generic sentence "the path of a node is the list of labels from the root" (`vpaths`);
     marshal_taps_are_paths: the tap log of MarshalTaps.v is exactly that, for every value whose maps have
     pairwise distinct, self-equal key streams (maps_ok); structural corollaries. *)
From Coq Require Import List Arith Lia Bool.
From SbModel Require Abstract.PathsAlias.
From SbModel Require Model.MarshalTaps.
From SbModel Require Spec.Conform.
From SbModel Require Proofs.MarshalP.

Module AliasP.
Import ListNotations.
Import PathsAlias.

Section Alias.
Variable grow : nat -> nat.
Hypothesis grow_ok : forall n, n < grow n.

(* what an error carries: a copy of the path, taken when the error is built (ctx.go: the error option
   WithPath(ctx) appends ctx.Path to an empty slice) *)
Definition snapshot (st : store) (p : slice) : list nat := read st p.
Definition view (p : slice) (st' : store) : list nat := read st' p.

(* one further piece of processing started from the slice header q: ctx.WithPath(x) on a context whose Path is
   q, or the whole traversal of a value under such a context *)
Inductive step (q : slice) (st st' : store) : Prop :=
| step_append x q' : append grow st q x = (st', q') -> step q st st'
| step_visit t taps : visit grow st q t = (st', taps) -> step q st st'.

Inductive later (qs : list slice) : store -> store -> Prop :=
| later_refl st : later qs st st
| later_step st q st1 st2 : In q qs -> step q st st1 -> later qs st1 st2 -> later qs st st2.

Lemma step_frame q st st' : wf st q -> step q st st' -> frame st st' (arr q) (len q).
Proof.
  intros Hwf [x q' Ha|t taps Hv].
  - destruct (append_spec grow grow_ok st q x st' q' Hwf Ha) as (_ & _ & _ & Hf & _). exact Hf.
  - pose proof (visit_all_ok grow grow_ok t st q (read st q) Hwf eq_refl) as H.
    rewrite Hv in H. destruct H as [_ Hf]. exact Hf.
Qed.

Theorem view_stable_general qs q : forall st st',
  arr q < next st ->
  (forall r, In r qs -> wf st r /\ (arr r <> arr q \/ len q <= len r)) ->
  later qs st st' -> view q st' = view q st.
Proof.
  intros st st' Hq Hqs Hl. induction Hl as [st|st r st1 st2 Hin Hs _ IH]; [reflexivity|].
  destruct (Hqs r Hin) as [Hwf Hc].
  pose proof (step_frame r st st1 Hwf Hs) as Hf.
  rewrite IH.
  - apply (read_frame _ _ _ _ _ Hf Hq). destruct Hc as [Hc|Hc]; [left; congruence|right; exact Hc].
  - destruct Hf. lia.
  - intros r' Hr'. destruct (Hqs r' Hr') as [Hwf' Hc']. split; [apply (wf_mono st); [exact Hwf'|apply Hf]|exact Hc'].
Qed.

Corollary view_stable_own st st' p : wf st p -> later [p] st st' -> view p st' = view p st.
Proof.
  intros Hwf. apply view_stable_general; [apply Hwf|].
  intros r [<-|[]]. split; [exact Hwf|right; lia].
Qed.

(* the snapshot taken for a child is the child's true path; it is a list, so the later store st' plays no part *)
Theorem snapshot_stable st p pi x st1 p1 :
  wf st p -> read st p = pi -> append grow st p x = (st1, p1) ->
  let e := snapshot st1 p1 in
  forall st', later [p; p1] st1 st' -> e = pi ++ [x].
Proof.
  intros Hwf Hr Ha e st' _. unfold e, snapshot.
  destruct (append_spec grow grow_ok st p x st1 p1 Hwf Ha) as (_ & Hr1 & _). rewrite Hr1, Hr. reflexivity.
Qed.

(* a full parent: append copies, the child lives in a fresh array which neither the child's own subtree
   (deeper) nor the later siblings (other array) can change *)
Theorem view_stable_when_full st p x st1 p1 :
  wf st p -> len p = cap p -> append grow st p x = (st1, p1) ->
  forall st', later [p; p1] st1 st' -> view p1 st' = view p1 st1.
Proof.
  intros Hwf Hfull Ha st'.
  destruct (append_spec grow grow_ok st p x st1 p1 Hwf Ha) as (Hwf1 & _ & _ & [Hn _] & _).
  destruct (append_full grow st p x st1 p1 ltac:(lia) Ha) as (Harr & _).
  apply view_stable_general; [apply Hwf1|].
  intros r [<-|[<-|[]]].
  - split; [exact (wf_mono st st1 p Hwf Hn)|left; destruct Hwf; lia].
  - split; [exact Hwf1|right; lia].
Qed.

Fixpoint runs (st : store) (p : slice) (ts : list tree) : store * list (list (list nat)) :=
  match ts with
  | [] => (st, [])
  | t :: r =>
      let '(st1, taps) := visit grow st p t in
      let '(st2, rest) := runs st1 p r in
      (st2, taps :: rest)
  end.

Theorem runs_taps_true_paths ts : forall st p pi, wf st p -> read st p = pi ->
  let '(st', tapss) := runs st p ts in
  tapss = map (paths pi) ts /\ frame st st' (arr p) (len p).
Proof.
  induction ts as [|t r IH]; intros st p pi Hwf Hr; cbn [runs map].
  - split; [reflexivity|apply frame_refl].
  - pose proof (visit_all_ok grow grow_ok t st p pi Hwf Hr) as Hv.
    destruct (visit grow st p t) as [st1 taps]. destruct Hv as [-> Hf1].
    destruct (frame_own st st1 p Hwf Hf1) as [Hwf1 Hr1]. rewrite Hr in Hr1.
    specialize (IH st1 p pi Hwf1 Hr1). destruct (runs st1 p r) as [st2 rest]. destruct IH as [-> Hf2].
    split; [reflexivity|exact (frame_seq _ _ _ _ _ Hf1 Hf2)].
Qed.

Corollary runs_independent ts st p : wf st p ->
  snd (runs st p ts) = map (fun t => snd (visit grow st p t)) ts.
Proof.
  intros Hwf. pose proof (runs_taps_true_paths ts st p (read st p) Hwf eq_refl) as H.
  destruct (runs st p ts) as [st' tapss]. destruct H as [-> _]. cbn [snd].
  apply map_ext. intros t.
  pose proof (visit_all_ok grow grow_ok t st p (read st p) Hwf eq_refl) as Hv.
  destruct (visit grow st p t) as [st1 taps]. destruct Hv as [-> _]. reflexivity.
Qed.

Corollary runs_from_root ts : snd (runs st0 p0 ts) = map (paths []) ts.
Proof.
  pose proof (runs_taps_true_paths ts st0 p0 [] wf_root eq_refl) as H.
  destruct (runs st0 p0 ts) as [st' tapss]. destruct H as [-> _]. reflexivity.
Qed.

(* the same contrast on a whole traversal: keep the slice HEADER handed to each tap *)
Fixpoint visit_h (st : store) (p : slice) (t : tree) {struct t} : store * list slice :=
  match t with
  | Node cs =>
      let '(st', hs) :=
        (fix kids (st : store) (l : list (nat * tree)) : store * list slice :=
           match l with
           | [] => (st, [])
           | (lab, c) :: r =>
               let '(st1, p1) := append grow st p lab in
               let '(st2, h1) := visit_h st1 p1 c in
               let '(st3, h2) := kids st2 r in
               (st3, h1 ++ h2)
           end) st cs in
      (st', p :: hs)
  end.

Definition kids_h (p : slice) :=
  fix kids (st : store) (l : list (nat * tree)) : store * list slice :=
    match l with
    | [] => (st, [])
    | (lab, c) :: r =>
        let '(st1, p1) := append grow st p lab in
        let '(st2, h1) := visit_h st1 p1 c in
        let '(st3, h2) := kids st2 r in
        (st3, h1 ++ h2)
    end.
Lemma visit_h_node st p cs : visit_h st p (Node cs) = let '(st', hs) := kids_h p st cs in (st', p :: hs).
Proof. reflexivity. Qed.
End Alias.

(* a growth policy that never leaves spare capacity: every append copies *)
Definition exact (n : nat) : nat := S n.
Lemma exact_ok n : n < exact n.
Proof. unfold exact. lia. Qed.

Definition untouched (st st' : store) : Prop :=
  next st <= next st' /\ forall b j, b < next st -> cell st' b j = cell st b j.

Definition visit_h_ok (t : tree) : Prop :=
  forall st p pi, wf st p -> len p = cap p -> read st p = pi ->
    let '(st', hs) := visit_h exact st p t in
    map (fun h => read st' h) hs = paths pi t /\ untouched st st' /\ Forall (fun h => arr h < next st') hs.

Lemma read_untouched st st' h : untouched st st' -> arr h < next st -> read st' h = read st h.
Proof. intros [_ Hu] Hh. apply read_ext. intros j _. apply Hu. exact Hh. Qed.

Lemma untouched_trans st1 st2 st3 : untouched st1 st2 -> untouched st2 st3 -> untouched st1 st3.
Proof. intros [Hn1 Hc1] [Hn2 Hc2]. split; [lia|]. intros b j Hb. rewrite Hc2; [apply Hc1; exact Hb|lia]. Qed.

Lemma kids_h_ok p pi : forall cs, Forall (fun c => visit_h_ok (snd c)) cs ->
  forall st, wf st p -> len p = cap p -> read st p = pi ->
    let '(st', hs) := kids_h exact p st cs in
    map (fun h => read st' h) hs = kpaths pi cs /\ untouched st st' /\ Forall (fun h => arr h < next st') hs.
Proof.
  induction 1 as [|[lab c] r Hc _ IH]; intros st Hwf Hfull Hr; cbn [kids_h kpaths].
  - split; [reflexivity|]. split; [split; [lia|auto]|constructor].
  - destruct (append exact st p lab) as [st1 p1] eqn:Ea.
    destruct (append_spec exact exact_ok st p lab st1 p1 Hwf Ea) as (Hwf1 & Hr1 & Hlen1 & _ & _).
    destruct (append_full exact st p lab st1 p1 ltac:(lia) Ea) as (_ & Hcap1 & Hu1).
    assert (Hfull1 : len p1 = cap p1) by (rewrite Hcap1, Hlen1; reflexivity).
    specialize (Hc st1 p1 (pi ++ [lab]) Hwf1 Hfull1 ltac:(rewrite Hr1, Hr; reflexivity)). cbn [snd] in Hc.
    destruct (visit_h exact st1 p1 c) as [st2 h1]. destruct Hc as (Hm1 & Hu2 & Hb1).
    pose proof (untouched_trans _ _ _ Hu1 Hu2) as Hu12.
    assert (Hwf2 : wf st2 p) by (apply (wf_mono st); [exact Hwf|apply Hu12]).
    assert (Hr2 : read st2 p = pi) by (rewrite <- Hr; apply read_untouched; [exact Hu12|apply Hwf]).
    specialize (IH st2 Hwf2 Hfull Hr2). destruct (kids_h exact p st2 r) as [st3 h2]. destruct IH as (Hm2 & Hu3 & Hb2).
    split; [|split].
    + rewrite map_app, Hm2. f_equal. rewrite <- Hm1. apply map_ext_in. intros h Hh.
      apply read_untouched; [exact Hu3|]. rewrite Forall_forall in Hb1. exact (Hb1 h Hh).
    + exact (untouched_trans _ _ _ Hu12 Hu3).
    + apply Forall_app. split; [|exact Hb2]. destruct Hu3 as [Hn3 _].
      rewrite Forall_forall in *. intros h Hh. specialize (Hb1 h Hh). lia.
Qed.

(* with no spare capacity anywhere (full base slice, exact growth) every kept header still shows, at the END
   of the traversal, the path its element was tapped with *)
Theorem hdrs_stable_exact_growth : forall t, visit_h_ok t.
Proof.
  induction t as [cs IH] using tree_ind2. intros st p pi Hwf Hfull Hr.
  rewrite visit_h_node, paths_node.
  pose proof (kids_h_ok p pi cs IH st Hwf Hfull Hr) as Hk.
  destruct (kids_h exact p st cs) as [st' hs]. destruct Hk as (Hm & Hu & Hb).
  split; [|split; [exact Hu|]].
  - cbn [map]. f_equal; [|exact Hm].
    rewrite <- Hr. apply read_untouched; [exact Hu|apply Hwf].
  - constructor; [|exact Hb]. destruct Hwf as [Ha _], Hu as [Hn _]. lia.
Qed.

(* the contrast: a kept header CAN be changed by the next sibling.  Go-like growth: double *)
Definition double (n : nat) : nat := 2 * n + 2.
Lemma double_ok n : n < double n.
Proof. unfold double. lia. Qed.

(* a parent context at path [7;8;9] whose slice has one spare cell (len 3, cap 4) *)
Definition st_w : store := {| cell := fun b j => if Nat.eqb b 0 then nth j [7; 8; 9] 0 else 0; next := 1 |}.
Definition p_w : slice := {| arr := 0; len := 3; cap := 4 |}.

Theorem view_refuted :
  exists (grow : nat -> nat) st p pi x y st1 p1 st2 p2,
    (forall n, n < grow n) /\ wf st p /\ read st p = pi /\ x <> y /\
    append grow st p x = (st1, p1) /\            (* the first child's context ... *)
    append grow st1 p y = (st2, p2) /\           (* ... and then its sibling's, from the same parent *)
    later grow [p; p1] st1 st2 /\
    snapshot st1 p1 = pi ++ [x] /\               (* the copy taken for the first child *)
    view p1 st1 = pi ++ [x] /\                   (* its header, read at once *)
    view p1 st2 = pi ++ [y] /\                   (* its header, read after the sibling: the SIBLING's path *)
    view p1 st2 <> view p1 st1.
Proof.
  exists double, st_w, p_w, [7; 8; 9], 1, 2,
         (fst (append double st_w p_w 1)), (snd (append double st_w p_w 1)),
         (fst (append double (fst (append double st_w p_w 1)) p_w 2)),
         (snd (append double (fst (append double st_w p_w 1)) p_w 2)).
  split; [exact double_ok|]. split; [split; cbn; lia|]. split; [reflexivity|]. split; [discriminate|].
  split; [reflexivity|]. split; [reflexivity|].
  split.
  { eapply later_step; [left; reflexivity| |apply later_refl].
    eapply step_append with (x := 2). reflexivity. }
  split; [reflexivity|]. split; [reflexivity|]. split; [reflexivity|]. vm_compute. discriminate.
Qed.

(* the same on a whole traversal from the empty path: root -> 1 -> {2, 3}.  Under doubling the context [1] has
   len 1, cap 2, so the contexts [1;2] and [1;3] share one cell: at the end the header kept for [1;2] reads [1;3] *)
Definition t_w : tree := Node [(1, Node [(2, Node []); (3, Node [])])].

Theorem hdrs_refuted :
  exists (grow : nat -> nat) t,
    (forall n, n < grow n) /\
    let '(st', hs) := visit_h grow st0 p0 t in
    snd (visit grow st0 p0 t) = [[]; [1]; [1; 2]; [1; 3]] /\        (* what the taps saw: the true paths *)
    map (fun h => read st' h) hs = [[]; [1]; [1; 3]; [1; 3]] /\      (* what the kept headers show afterwards *)
    map (fun h => read st' h) hs <> paths [] t.
Proof.
  exists double, t_w. split; [exact double_ok|]. vm_compute.
  split; [reflexivity|]. split; [reflexivity|discriminate].
Qed.

Example later_ex :   (* a later store that is really later: a sibling append and a whole sibling subtree *)
  later double [p_w] st_w (fst (visit double (fst (append double st_w p_w 5)) p_w (Node [(6, Node [(7, Node [])])]))).
Proof.
  eapply later_step; [left; reflexivity|eapply step_append with (x := 5); reflexivity|].
  eapply later_step; [left; reflexivity| |apply later_refl].
  eapply step_visit with (t := Node [(6, Node [(7, Node [])])]). apply surjective_pairing.
Qed.

Example view_stable_own_ex :
  view p_w (fst (visit double (fst (append double st_w p_w 5)) p_w (Node [(6, Node [(7, Node [])])]))) = [7; 8; 9].
Proof. vm_compute. reflexivity. Qed.

Example view_stable_when_full_ex :
  let p := {| arr := 0; len := 3; cap := 3 |} in
  let '(st1, p1) := append double st_w p 1 in
  let '(st2, p2) := append double st1 p 2 in
  view p1 st1 = [7; 8; 9; 1] /\ view p1 st2 = [7; 8; 9; 1] /\ view p2 st2 = [7; 8; 9; 2].
Proof. vm_compute. repeat split. Qed.

Example snapshot_stable_ex :
  let '(st1, p1) := append double st_w p_w 1 in
  let e := snapshot st1 p1 in
  let '(st2, _) := append double st1 p_w 2 in
  e = [7; 8; 9; 1] /\ view p1 st2 = [7; 8; 9; 2].
Proof. vm_compute. split; reflexivity. Qed.

Example runs_ex :
  snd (runs double st0 p0 [t_w; Node [(4, Node []); (5, Node [(6, Node [])])]; t_w]) =
  [ [[]; [1]; [1; 2]; [1; 3]];  [[]; [4]; [5]; [5; 6]];  [[]; [1]; [1; 2]; [1; 3]] ].
Proof. vm_compute. reflexivity. Qed.

Example runs_shared_spare_ex :
  snd (runs double st_w p_w [t_w; Node [(4, Node [])]]) =
  [ [[7; 8; 9]; [7; 8; 9; 1]; [7; 8; 9; 1; 2]; [7; 8; 9; 1; 3]];  [[7; 8; 9]; [7; 8; 9; 4]] ].
Proof. vm_compute. reflexivity. Qed.

Example hdrs_stable_exact_ex :
  let '(st', hs) := visit_h exact st0 p0 t_w in
  map (fun h => read st' h) hs = [[]; [1]; [1; 2]; [1; 3]].
Proof. vm_compute. reflexivity. Qed.

End AliasP.

Module TapsP.
Import ListNotations.
Import MarshalTaps.
Local Open Scope N_scope.

(* The elements of a value form a tree.  An edge carries the path element it ADDS (a field name, an index, a map
   key) or nothing (the referent of a pointer / the content of an interface, and the auxiliary tokens handed to
   ctx.Marshal on the way: the End token of a container under the container's path, the string bridging a
   time.Time).  A node carries the reflect.Kind the tap sees, as its number: 22 is Ptr (an End token is a *Token),
   24 String; the examples also show 17 Array, 19 Func, 20 Interface, 21 Map, 23 Slice, 25 Struct. *)
Inductive vtree := VNode (kind : N) (kids : list (option pelem * vtree)).
Definition leaf (k : N) : vtree := VNode k [].

Section vtree_ind2.
  Variable P : vtree -> Prop.
  Hypothesis HN : forall k cs, Forall (fun c => P (snd c)) cs -> P (VNode k cs).
  Fixpoint vtree_ind2 (n : vtree) : P n :=
    match n with VNode k cs => HN k cs ((fix go l : Forall (fun c => P (snd c)) l :=
       match l with [] => Forall_nil _ | c :: r => Forall_cons _ (vtree_ind2 (snd c)) (go r) end) cs) end.
End vtree_ind2.

(* THE sentence of C17: the path of an element is the list of the path elements on the way from the root;
   elements are reported in pre-order *)
Definition ext (pi : list pelem) (lab : option pelem) : list pelem :=
  match lab with None => pi | Some e => pi ++ [e] end.
Fixpoint vpaths (pi : list pelem) (n : vtree) {struct n} : list tap :=
  match n with
  | VNode k cs => (pi, k) :: (fix go l := match l with [] => [] | (lab, c) :: r => vpaths (ext pi lab) c ++ go r end) cs
  end.
Definition kpaths (pi : list pelem) :=
  fix go (l : list (option pelem * vtree)) : list tap :=
    match l with [] => [] | (lab, c) :: r => vpaths (ext pi lab) c ++ go r end.
Lemma vpaths_node pi k cs : vpaths pi (VNode k cs) = (pi, k) :: kpaths pi cs.
Proof. reflexivity. Qed.
Lemma kpaths_app pi a : forall b, kpaths pi (a ++ b) = kpaths pi a ++ kpaths pi b.
Proof.
  induction a as [|[lab c] r IH]; intros b; cbn [kpaths app]; [reflexivity|]. rewrite IH, app_assoc. reflexivity.
Qed.

(* the static element type at each position (the defaults are unreachable for well-typed values, has_type) *)
Definition elem_ty (t : ty) : ty := match underlying t with TArray _ e | TSlice e => e | _ => TAny end.
Definition kv_ty (t : ty) : ty * ty := match underlying t with TMap k v => (k, v) | _ => (TAny, TAny) end.
Definition fields_of (t : ty) : list (bytes * bool * ty) := match underlying t with TStruct fs => fs | _ => [] end.
Definition ptr_ty (t : ty) : ty := match underlying t with TPtr e => e | _ => TAny end.
Definition outs_of (t : ty) : list ty := match underlying t with TFunc outs => outs | _ => [] end.
(* the stream a map key is sorted by, and the omitempty test of a field *)
Definition sortkey (kt : ty) (k : gval) : list token := match marshal default_opts kt k with Ok ts => ts | _ => [] end.
Definition skipped (o : copts) (fd : bytes * bool * ty) (x : gval) : bool :=
  skip_empty o && (is_zero (snd fd) x || (is_slice_kind (snd fd) && Nat.eqb (glen x) 0)).

(* insertion sort of things tagged with a key stream: the order of Marshal.sort_entries *)
Definition tkey_le {A} (a b : list token * A) : bool :=
  match cmp_tokens (fst a) (fst b) with Some Gt => false | _ => true end.
Fixpoint tinsert {A} (e : list token * A) (l : list (list token * A)) : list (list token * A) :=
  match l with
  | [] => [e]
  | x :: r => if tkey_le e x then e :: l else x :: tinsert e r
  end.
Definition tsort {A} (l : list (list token * A)) : list (list token * A) := fold_right tinsert [] l.

(* the elements of a typed value:
   - a slice / array: its items, item i under index i; then the End token under the container's own path
   - a struct: for every field that is emitted (exported, not omitted), in declaration order, the name token and
     the field value, both under the field name; then the End token
   - a map: its entries in the marshalled (sorted) order; key and value both under the key (key_elem: an int, a
     string, or the key value itself); then the End token
   - a non-nil pointer / interface: the referent / the content, under the SAME path
   - a tuple func: its results, result i under index i; then the End token
   - a time.Time: the bridging string under the same path *)
Fixpoint elements (o : copts) (t : ty) (v : gval) {struct v} : vtree :=
  VNode (tap_kind t)
    match v with
    | GTime _ => [(None, leaf 24)]
    | GList _ items =>
        let et := elem_ty t in
        (fix go (l : list gval) (i : Z) : list (option pelem * vtree) :=
           match l with
           | [] => [(None, leaf 22)]
           | x :: r => (Some (PIdx i), elements o et x) :: go r (i + 1)%Z
           end) items 0%Z
    | GMap _ entries =>
        let '(kt, vt) := kv_ty t in
        flat_map snd
          (tsort ((fix go (l : list (gval * gval)) : list (list token * list (option pelem * vtree)) :=
                     match l with
                     | [] => []
                     | (k, x) :: r =>
                         (sortkey kt k, [(Some (key_elem kt k), elements o kt k); (Some (key_elem kt k), elements o vt x)])
                         :: go r
                     end) entries))
        ++ [(None, leaf 22)]
    | GStruct vals =>
        (fix go (l : list gval) (f : list (bytes * bool * ty)) : list (option pelem * vtree) :=
           match l, f with
           | x :: r, fd :: fr =>
               if skipped o fd x then go r fr
               else if negb (fexported fd) then go r fr
               else (Some (PStr (fname fd)), leaf 24) :: (Some (PStr (fname fd)), elements o (snd fd) x) :: go r fr
           | _, _ => [(None, leaf 22)]
           end) vals (fields_of t)
    | GPtr (Some x) => [(None, elements o (ptr_ty t) x)]
    | GAny (Some (t', x)) => [(None, elements o t' x)]
    | GFunc r =>
        if ignore_funcs o then []
        else match r with
             | None => [(None, leaf 22)]
             | Some items =>
                 (fix go (l : list gval) (ts : list ty) (i : Z) : list (option pelem * vtree) :=
                    match l, ts with
                    | x :: r', xt :: tr => (Some (PIdx i), elements o xt x) :: go r' tr (i + 1)%Z
                    | _, _ => [(None, leaf 22)]
                    end) items (outs_of t) 0%Z
             end
    | _ => []
    end.

Definition paths_of (o : copts) (t : ty) (v : gval) (pi : list pelem) : list tap := vpaths pi (elements o t v).

Definition is_eq (c : option comparison) : bool := match c with Some Eq => true | _ => false end.
Fixpoint keys_goodb (ks : list (list token)) : bool :=
  match ks with
  | [] => true
  | k :: r => is_eq (cmp_tokens k k) && negb (existsb (fun k' => is_eq (cmp_tokens k k')) r) && keys_goodb r
  end.

Fixpoint maps_ok (t : ty) (v : gval) {struct v} : bool :=
  match v with
  | GList _ items =>
      let et := elem_ty t in
      (fix all (l : list gval) : bool := match l with [] => true | x :: r => maps_ok et x && all r end) items
  | GMap _ entries =>
      let '(kt, vt) := kv_ty t in
      keys_goodb (map (fun e => sortkey kt (fst e)) entries) &&
      (fix all (l : list (gval * gval)) : bool :=
         match l with [] => true | (k, x) :: r => maps_ok kt k && maps_ok vt x && all r end) entries
  | GStruct vals =>
      (fix all (l : list gval) (f : list (bytes * bool * ty)) : bool :=
         match l, f with x :: r, fd :: fr => maps_ok (snd fd) x && all r fr | _, _ => true end) vals (fields_of t)
  | GPtr (Some x) => maps_ok (ptr_ty t) x
  | GAny (Some (t', x)) => maps_ok t' x
  | GFunc (Some items) =>
      (fix all (l : list gval) (ts : list ty) : bool :=
         match l, ts with x :: r, xt :: tr => maps_ok xt x && all r tr | _, _ => true end) items (outs_of t)
  | _ => true
  end.

(* The local fixpoints of mtaps, elements and maps_ok under names of their own (and, through elem_ty ... outs_of
   above, the type projections mtaps writes inline).  They are transcriptions: the equations after each group,
   proved by reflexivity, tie them to the originals, so a change there breaks an equation, not a copy silently. *)
Definition mt_items (o : copts) (et : ty) (path : list pelem) :=
  fix go (l : list gval) (i : Z) : list tap :=
    match l with
    | [] => [(path, 22)]
    | x :: r => mtaps o et x (path ++ [PIdx i]) ++ go r (i + 1)%Z
    end.
Definition mt_fields (o : copts) (path : list pelem) :=
  fix go (l : list gval) (f : list (bytes * bool * ty)) : list tap :=
    match l, f with
    | x :: r, fd :: fr =>
        if skipped o fd x then go r fr
        else if negb (fexported fd) then go r fr
        else (path ++ [PStr (fname fd)], 24) :: mtaps o (snd fd) x (path ++ [PStr (fname fd)]) ++ go r fr
    | _, _ => [(path, 22)]
    end.
Definition mt_outs (o : copts) (path : list pelem) :=
  fix go (l : list gval) (ts : list ty) (i : Z) : list tap :=
    match l, ts with
    | x :: r', xt :: tr => mtaps o xt x (path ++ [PIdx i]) ++ go r' tr (i + 1)%Z
    | _, _ => [(path, 22)]
    end.
Definition mt_entries (o : copts) (kt vt : ty) (path : list pelem) :=
  fix go (l : list (gval * gval)) : list entry * list (list token * list tap) :=
    match l with
    | [] => ([], [])
    | (k, x) :: r =>
        let '(a, b) := go r in
        ((sortkey kt k, [], []) :: a,
         (sortkey kt k, mtaps o kt k (path ++ [key_elem kt k]) ++ mtaps o vt x (path ++ [key_elem kt k])) :: b)
    end.
Definition lookup (tagged : list (list token * list tap)) (e : entry) : list tap :=
  match find (fun p => is_eq (cmp_tokens (fst p) (fst (fst e)))) tagged with
  | Some p => snd p
  | None => []
  end.

Lemma mtaps_list o t n items path :
  mtaps o t (GList n items) path = (path, tap_kind t) :: mt_items o (elem_ty t) path items 0%Z.
Proof. reflexivity. Qed.
Lemma mtaps_struct o t vals path :
  mtaps o t (GStruct vals) path = (path, tap_kind t) :: mt_fields o path vals (fields_of t).
Proof. reflexivity. Qed.
Lemma mtaps_func o t items path :
  mtaps o t (GFunc (Some items)) path =
  (path, tap_kind t) :: (if ignore_funcs o then [] else mt_outs o path items (outs_of t) 0%Z).
Proof. reflexivity. Qed.
Lemma mtaps_map o t n es path :
  mtaps o t (GMap n es) path =
  (path, tap_kind t) ::
  (let '(kt, vt) := kv_ty t in
   flat_map (lookup (snd (mt_entries o kt vt path es))) (sort_entries (fst (mt_entries o kt vt path es))) ++ [(path, 22)]).
Proof. cbn [mtaps]. unfold kv_ty. destruct (underlying t); reflexivity. Qed.

Definition el_items (o : copts) (et : ty) :=
  fix go (l : list gval) (i : Z) : list (option pelem * vtree) :=
    match l with
    | [] => [(None, leaf 22)]
    | x :: r => (Some (PIdx i), elements o et x) :: go r (i + 1)%Z
    end.
Definition el_fields (o : copts) :=
  fix go (l : list gval) (f : list (bytes * bool * ty)) : list (option pelem * vtree) :=
    match l, f with
    | x :: r, fd :: fr =>
        if skipped o fd x then go r fr
        else if negb (fexported fd) then go r fr
        else (Some (PStr (fname fd)), leaf 24) :: (Some (PStr (fname fd)), elements o (snd fd) x) :: go r fr
    | _, _ => [(None, leaf 22)]
    end.
Definition el_outs (o : copts) :=
  fix go (l : list gval) (ts : list ty) (i : Z) : list (option pelem * vtree) :=
    match l, ts with
    | x :: r', xt :: tr => (Some (PIdx i), elements o xt x) :: go r' tr (i + 1)%Z
    | _, _ => [(None, leaf 22)]
    end.
Definition el_entries (o : copts) (kt vt : ty) :=
  fix go (l : list (gval * gval)) : list (list token * list (option pelem * vtree)) :=
    match l with
    | [] => []
    | (k, x) :: r =>
        (sortkey kt k, [(Some (key_elem kt k), elements o kt k); (Some (key_elem kt k), elements o vt x)]) :: go r
    end.

Lemma elements_list o t n items :
  elements o t (GList n items) = VNode (tap_kind t) (el_items o (elem_ty t) items 0%Z).
Proof. reflexivity. Qed.
Lemma elements_struct o t vals :
  elements o t (GStruct vals) = VNode (tap_kind t) (el_fields o vals (fields_of t)).
Proof. reflexivity. Qed.
Lemma elements_func o t items :
  elements o t (GFunc (Some items)) =
  VNode (tap_kind t) (if ignore_funcs o then [] else el_outs o items (outs_of t) 0%Z).
Proof. reflexivity. Qed.
Lemma elements_map o t n es :
  elements o t (GMap n es) =
  VNode (tap_kind t) (let '(kt, vt) := kv_ty t in flat_map snd (tsort (el_entries o kt vt es)) ++ [(None, leaf 22)]).
Proof. cbn [elements]. destruct (kv_ty t); reflexivity. Qed.

Definition all_items (et : ty) :=
  fix all (l : list gval) : bool := match l with [] => true | x :: r => maps_ok et x && all r end.
Definition all_fields :=
  fix all (l : list gval) (f : list (bytes * bool * ty)) : bool :=
    match l, f with x :: r, fd :: fr => maps_ok (snd fd) x && all r fr | _, _ => true end.
Definition all_outs :=
  fix all (l : list gval) (ts : list ty) : bool :=
    match l, ts with x :: r, xt :: tr => maps_ok xt x && all r tr | _, _ => true end.
Definition all_entries (kt vt : ty) :=
  fix all (l : list (gval * gval)) : bool :=
    match l with [] => true | (k, x) :: r => maps_ok kt k && maps_ok vt x && all r end.
Lemma maps_ok_list t n items : maps_ok t (GList n items) = all_items (elem_ty t) items.
Proof. reflexivity. Qed.
Lemma maps_ok_struct t vals : maps_ok t (GStruct vals) = all_fields vals (fields_of t).
Proof. reflexivity. Qed.
Lemma maps_ok_func t items : maps_ok t (GFunc (Some items)) = all_outs items (outs_of t).
Proof. reflexivity. Qed.
Lemma maps_ok_map t n es :
  maps_ok t (GMap n es) =
  (let '(kt, vt) := kv_ty t in keys_goodb (map (fun e => sortkey kt (fst e)) es) && all_entries kt vt es).
Proof. cbn [maps_ok]. destruct (kv_ty t); reflexivity. Qed.

Definition bare {A} (e : list token * A) : entry := (fst e, [], []).

Lemma insert_bare {A} (e : list token * A) l : insert_entry (bare e) (map bare l) = map bare (tinsert e l).
Proof.
  induction l as [|x r IH]; [reflexivity|]. cbn [map insert_entry tinsert].
  change (key_le (bare e) (bare x)) with (tkey_le e x).
  destruct (tkey_le e x); [reflexivity|]. cbn [map]. rewrite IH. reflexivity.
Qed.
Lemma sort_bare {A} (l : list (list token * A)) : sort_entries (map bare l) = map bare (tsort l).
Proof.
  induction l as [|x r IH]; [reflexivity|]. cbn [map]. unfold sort_entries, tsort in *. cbn [fold_right].
  rewrite IH. apply insert_bare.
Qed.

Definition pmap {A B} (f : A -> B) (e : list token * A) : list token * B := (fst e, f (snd e)).
Lemma tinsert_pmap {A B} (f : A -> B) e l : tinsert (pmap f e) (map (pmap f) l) = map (pmap f) (tinsert e l).
Proof.
  induction l as [|x r IH]; [reflexivity|]. cbn [map tinsert].
  change (tkey_le (pmap f e) (pmap f x)) with (tkey_le e x).
  destruct (tkey_le e x); [reflexivity|]. cbn [map]. rewrite IH. reflexivity.
Qed.
Lemma tsort_pmap {A B} (f : A -> B) l : tsort (map (pmap f) l) = map (pmap f) (tsort l).
Proof.
  induction l as [|x r IH]; [reflexivity|]. cbn [map]. unfold tsort in *. cbn [fold_right].
  rewrite IH. apply tinsert_pmap.
Qed.

Lemma tinsert_in {A} (e x : list token * A) l : In x (tinsert e l) -> x = e \/ In x l.
Proof.
  induction l as [|y r IH]; cbn [tinsert].
  - intros [<-|[]]. left; reflexivity.
  - destruct (tkey_le e y).
    + intros [<-|H]; [left; reflexivity|right; exact H].
    + intros [<-|H]; [right; left; reflexivity|]. destruct (IH H) as [->|H']; [left; reflexivity|right; right; exact H'].
Qed.
Lemma tsort_in {A} (x : list token * A) l : In x (tsort l) -> In x l.
Proof.
  induction l as [|y r IH]; [intros []|]. unfold tsort in *. cbn [fold_right]. intros H.
  destruct (tinsert_in _ _ _ H) as [->|H']; [left; reflexivity|right; exact (IH H')].
Qed.

Lemma find_self {A} (l : list (list token * A)) : keys_goodb (map fst l) = true ->
  forall e, In e l -> find (fun p => is_eq (cmp_tokens (fst p) (fst e))) l = Some e.
Proof.
  induction l as [|a r IH]; intros Hg e Hin; [destruct Hin|].
  cbn [map keys_goodb] in Hg. apply andb_true_iff in Hg. destruct Hg as [Hg Hr].
  apply andb_true_iff in Hg. destruct Hg as [Hrefl Hne]. apply negb_true_iff in Hne.
  cbn [find]. destruct Hin as [<-|Hin]; [rewrite Hrefl; reflexivity|].
  destruct (is_eq (cmp_tokens (fst a) (fst e))) eqn:E; [|exact (IH Hr e Hin)].
  exfalso. assert (Hex : existsb (fun k' => is_eq (cmp_tokens (fst a) k')) (map fst r) = true).
  { apply existsb_exists. exists (fst e). split; [apply in_map; exact Hin|exact E]. }
  rewrite Hex in Hne. discriminate.
Qed.

Lemma lookup_sorted (tagged : list (list token * list tap)) : keys_goodb (map fst tagged) = true ->
  flat_map (lookup tagged) (sort_entries (map bare tagged)) = flat_map snd (tsort tagged).
Proof.
  intros Hg. rewrite sort_bare.
  assert (H : forall l', (forall e, In e l' -> In e tagged) ->
                         flat_map (lookup tagged) (map bare l') = flat_map snd l').
  { induction l' as [|e r IH]; intros Hin; [reflexivity|]. cbn [map flat_map].
    rewrite IH by (intros e' He'; apply Hin; right; exact He'). f_equal.
    unfold lookup, bare. cbn [fst]. rewrite (find_self tagged Hg e) by (apply Hin; left; reflexivity). reflexivity. }
  apply H. intros e. apply tsort_in.
Qed.

Definition tagged_taps (o : copts) (kt vt : ty) (path : list pelem) (es : list (gval * gval)) :=
  map (fun e : gval * gval =>
         (sortkey kt (fst e),
          mtaps o kt (fst e) (path ++ [key_elem kt (fst e)]) ++ mtaps o vt (snd e) (path ++ [key_elem kt (fst e)]))) es.

Lemma mt_entries_eq o kt vt path es :
  mt_entries o kt vt path es = (map bare (tagged_taps o kt vt path es), tagged_taps o kt vt path es).
Proof.
  induction es as [|[k x] r IH]; [reflexivity|]. cbn [mt_entries]. rewrite IH. reflexivity.
Qed.

Definition adequate (v : gval) : Prop :=
  forall o t path, maps_ok t v = true -> mtaps o t v path = vpaths path (elements o t v).

Lemma items_adequate o et path : forall items, Forall adequate items ->
  forall i, all_items et items = true -> mt_items o et path items i = kpaths path (el_items o et items i).
Proof.
  induction 1 as [|x r Hx _ IH]; intros i Hok; cbn [mt_items el_items kpaths all_items] in *; [reflexivity|].
  apply andb_true_iff in Hok. destruct Hok as [Hokx Hokr].
  rewrite (Hx o et _ Hokx), (IH _ Hokr). reflexivity.
Qed.

Lemma fields_adequate o path : forall vals, Forall adequate vals ->
  forall fs, all_fields vals fs = true -> mt_fields o path vals fs = kpaths path (el_fields o vals fs).
Proof.
  induction 1 as [|x r Hx _ IH]; intros fs Hok; [destruct fs; reflexivity|].
  destruct fs as [|fd fr]; [reflexivity|]. cbn [mt_fields el_fields all_fields] in *.
  apply andb_true_iff in Hok. destruct Hok as [Hokx Hokr].
  destruct (skipped o fd x); [exact (IH fr Hokr)|].
  destruct (negb (fexported fd)); [exact (IH fr Hokr)|].
  cbn [kpaths ext]. rewrite (Hx o (snd fd) _ Hokx), (IH fr Hokr). reflexivity.
Qed.

Lemma outs_adequate o path : forall items, Forall adequate items ->
  forall ts i, all_outs items ts = true -> mt_outs o path items ts i = kpaths path (el_outs o items ts i).
Proof.
  induction 1 as [|x r Hx _ IH]; intros ts i Hok; [destruct ts; reflexivity|].
  destruct ts as [|xt tr]; [reflexivity|]. cbn [mt_outs el_outs all_outs kpaths ext] in *.
  apply andb_true_iff in Hok. destruct Hok as [Hokx Hokr].
  rewrite (Hx o xt _ Hokx), (IH tr _ Hokr). reflexivity.
Qed.

Lemma entries_adequate o kt vt path : forall es, Forall (fun e => adequate (fst e) /\ adequate (snd e)) es ->
  all_entries kt vt es = true ->
  tagged_taps o kt vt path es = map (pmap (kpaths path)) (el_entries o kt vt es).
Proof.
  induction 1 as [|[k x] r [Hk Hx] _ IH]; intros Hok; [reflexivity|]. cbn [fst snd] in Hk, Hx.
  cbn [all_entries] in Hok. apply andb_true_iff in Hok. destruct Hok as [Hok Hokr].
  apply andb_true_iff in Hok. destruct Hok as [Hokk Hokx].
  unfold tagged_taps in *. cbn [map el_entries fst snd]. rewrite (IH Hokr). f_equal.
  unfold pmap. cbn [fst snd kpaths ext]. rewrite (Hk o kt _ Hokk), (Hx o vt _ Hokx), app_nil_r. reflexivity.
Qed.

Lemma flat_pmap_kpaths path (l : list (list token * list (option pelem * vtree))) :
  flat_map snd (map (pmap (kpaths path)) l) = kpaths path (flat_map snd l).
Proof.
  induction l as [|e r IH]; [reflexivity|]. cbn [map flat_map]. rewrite kpaths_app, IH. reflexivity.
Qed.

Theorem mtaps_adequate : forall v, adequate v.
Proof.
  induction v as [b|z|n|b|b|s|n s|n l IH|n es IH|l IH| |x IH| |t' x IH| |l IH|e] using MarshalP.gval_ind3;
    intros o t path Hok; try reflexivity.
  - rewrite mtaps_list, elements_list, vpaths_node. f_equal.
    rewrite maps_ok_list in Hok. exact (items_adequate o (elem_ty t) path l IH 0%Z Hok).
  - rewrite mtaps_map, elements_map, vpaths_node. f_equal.
    rewrite maps_ok_map in Hok. destruct (kv_ty t) as [kt vt].
    apply andb_true_iff in Hok. destruct Hok as [Hkeys Hall].
    rewrite mt_entries_eq. cbn [fst snd].
    rewrite lookup_sorted.
    + rewrite (entries_adequate o kt vt path es IH Hall), tsort_pmap, flat_pmap_kpaths, kpaths_app. reflexivity.
    + unfold tagged_taps. rewrite map_map. exact Hkeys.
  - rewrite mtaps_struct, elements_struct, vpaths_node. f_equal.
    rewrite maps_ok_struct in Hok. exact (fields_adequate o path l IH (fields_of t) Hok).
  - cbn [mtaps elements maps_ok] in *. rewrite vpaths_node. f_equal. cbn [kpaths ext].
    rewrite app_nil_r. exact (IH o _ path Hok).
  - cbn [mtaps elements maps_ok] in *. rewrite vpaths_node. f_equal. cbn [kpaths ext].
    rewrite app_nil_r. exact (IH o _ path Hok).
  - cbn [mtaps elements]. destruct (ignore_funcs o); reflexivity.
  - rewrite mtaps_func, elements_func, vpaths_node. f_equal.
    rewrite maps_ok_func in Hok. destruct (ignore_funcs o); [reflexivity|].
    exact (outs_adequate o path l IH (outs_of t) 0%Z Hok).
Qed.

Theorem marshal_taps_are_paths o t v pi : maps_ok t v = true -> mtaps o t v pi = paths_of o t v pi.
Proof. exact (mtaps_adequate v o t pi). Qed.

Fixpoint no_maps (v : gval) : bool :=
  match v with
  | GMap _ _ => false
  | GList _ items => forallb no_maps items
  | GStruct vals => forallb no_maps vals
  | GPtr (Some x) => no_maps x
  | GAny (Some (_, x)) => no_maps x
  | GFunc (Some items) => forallb no_maps items
  | _ => true
  end.

Definition no_maps_ok_at (v : gval) : Prop := no_maps v = true -> forall t, maps_ok t v = true.

Lemma no_maps_ok : forall v, no_maps_ok_at v.
Proof.
  induction v as [b|z|n|b|b|s|n s|n l IH|n es IH|l IH| |x IH| |t' x IH| |l IH|e] using MarshalP.gval_ind3;
    intros H t; try reflexivity; try discriminate H.
  - rewrite maps_ok_list. cbn [no_maps] in H. generalize (elem_ty t). intros et.
    induction IH as [|x r Hx _ IHr]; [reflexivity|]. cbn [forallb all_items] in *.
    apply andb_true_iff in H. destruct H as [H1 H2]. rewrite (Hx H1 et), (IHr H2). reflexivity.
  - rewrite maps_ok_struct. cbn [no_maps] in H. generalize (fields_of t). intros fs. revert fs.
    induction IH as [|x r Hx _ IHr]; intros fs; [destruct fs; reflexivity|]. destruct fs as [|fd fr]; [reflexivity|].
    cbn [forallb all_fields] in *.
    apply andb_true_iff in H. destruct H as [H1 H2]. rewrite (Hx H1 (snd fd)), (IHr H2 fr). reflexivity.
  - cbn [no_maps maps_ok] in *. exact (IH H _).
  - cbn [no_maps maps_ok] in *. exact (IH H _).
  - rewrite maps_ok_func. cbn [no_maps] in H. generalize (outs_of t). intros ts. revert ts.
    induction IH as [|x r Hx _ IHr]; intros ts; [destruct ts; reflexivity|]. destruct ts as [|xt tr]; [reflexivity|].
    cbn [forallb all_outs] in *.
    apply andb_true_iff in H. destruct H as [H1 H2]. rewrite (Hx H1 xt), (IHr H2 tr). reflexivity.
Qed.

Corollary marshal_taps_are_paths_no_maps o t v pi : no_maps v = true -> mtaps o t v pi = paths_of o t v pi.
Proof. intros H. apply marshal_taps_are_paths. exact (no_maps_ok v H t). Qed.

Theorem root_tap_path o t v pi : exists tl, mtaps o t v pi = (pi, tap_kind t) :: tl.
Proof. destruct v; eexists; reflexivity. Qed.

Lemma vpaths_prefix : forall n pi tp, In tp (vpaths pi n) -> exists s, fst tp = pi ++ s.
Proof.
  induction n as [k cs IH] using vtree_ind2. intros pi tp. rewrite vpaths_node. intros [<-|Hin].
  - exists []. cbn [fst]. rewrite app_nil_r. reflexivity.
  - induction IH as [|[lab c] r Hc _ IHr]; [destruct Hin|]. cbn [kpaths] in Hin.
    apply in_app_or in Hin. destruct Hin as [Hin|Hin]; [|exact (IHr Hin)].
    cbn [snd] in Hc. destruct (Hc _ _ Hin) as [s Hs]. destruct lab as [e|]; cbn [ext] in Hs.
    + exists (e :: s). rewrite Hs, <- app_assoc. reflexivity.
    + exists s. exact Hs.
Qed.

Theorem taps_extend_root o t v pi tp : maps_ok t v = true -> In tp (mtaps o t v pi) -> exists s, fst tp = pi ++ s.
Proof. intros Hok. rewrite (marshal_taps_are_paths o t v pi Hok). apply vpaths_prefix. Qed.

(* two elements reached from the same parent by DIFFERENT path elements (two indices, two field names, two map
   keys) never report the same path, nor does anything below them.  (Same path element: a field name token and
   the field value, a map key and its value; no path element: a pointer and its referent, an interface and its
   content, a container and its End token - these share a path by design.) *)
Theorem sibling_taps_disjoint o pi e1 e2 t1 v1 t2 v2 a b :
  e1 <> e2 -> maps_ok t1 v1 = true -> maps_ok t2 v2 = true ->
  In a (mtaps o t1 v1 (pi ++ [e1])) -> In b (mtaps o t2 v2 (pi ++ [e2])) -> fst a <> fst b.
Proof.
  intros Hne H1 H2 Ha Hb E.
  destruct (taps_extend_root o t1 v1 _ a H1 Ha) as [s1 Hs1].
  destruct (taps_extend_root o t2 v2 _ b H2 Hb) as [s2 Hs2].
  rewrite E, Hs2, <- !app_assoc in Hs1. apply app_inv_head in Hs1. cbn [app] in Hs1.
  injection Hs1 as H _. apply Hne. symmetry. exact H.
Qed.

Fixpoint vsize (n : vtree) : nat :=
  match n with
  | VNode _ cs => S ((fix go l := match l with [] => O | (_, c) :: r => (vsize c + go r)%nat end) cs)
  end.
Definition ksize := fix go (l : list (option pelem * vtree)) : nat :=
  match l with [] => O | (_, c) :: r => (vsize c + go r)%nat end.

Lemma vpaths_length : forall n pi, length (vpaths pi n) = vsize n.
Proof.
  induction n as [k cs IH] using vtree_ind2. intros pi. rewrite vpaths_node.
  change (vsize (VNode k cs)) with (S (ksize cs)). cbn [length]. f_equal.
  induction IH as [|[lab c] r Hc _ IHr]; [reflexivity|]. cbn [kpaths ksize]. rewrite app_length, IHr.
  cbn [snd] in Hc. rewrite Hc. reflexivity.
Qed.

Theorem taps_count o t v pi : maps_ok t v = true -> length (mtaps o t v pi) = vsize (elements o t v).
Proof. intros Hok. rewrite (marshal_taps_are_paths o t v pi Hok). apply vpaths_length. Qed.

(* the side condition is needed: two Go map keys with Eq key streams (+0 and -0) *)
Theorem marshal_taps_are_paths_refuted :
  exists o t v, Conform.has_type t v = true /\ maps_ok t v = false /\ mtaps o t v [] <> paths_of o t v [].
Proof.
  exists default_opts, (TMap TF64 TBool),
         (GMap false [(GF64 0, GBool true); (GF64 9223372036854775808, GBool false)]).   (* 2^63: the bits of -0.0 *)
  split; [reflexivity|]. split; [reflexivity|]. vm_compute. discriminate.
Qed.

(* struct { A []int; b string; M map[string]*int8; P any; T time.Time; F func() (bool, string) } *)
Definition t_ex : ty :=
  TStruct [([65], true, TSlice (TInt WNat)); ([98], false, TString);
           ([77], true, TMap TString (TPtr (TInt W8))); ([80], true, TAny);
           ([84], true, TTime); ([70], true, TFunc [TBool; TString])].
Definition v_ex : gval :=
  GStruct [GList false [GInt 5; GInt 6]; GStr [120];
           GMap false [(GStr [122], GPtr (Some (GInt 1))); (GStr [97], GPtr None)];
           GAny (Some (TArray 1 TBool, GList false [GBool true]));
           GTime [1; 0; 0; 0; 0; 0; 0; 0; 0; 0; 0; 0; 0; 255; 255];
           GFunc (Some [GBool true; GStr []])].

Example ex_in_domain : Conform.has_type t_ex v_ex = true /\ maps_ok t_ex v_ex = true.
Proof. split; reflexivity. Qed.

Example ex_elements :
  elements default_opts t_ex v_ex =
  VNode 25
    [(Some (PStr [65]), leaf 24);
     (Some (PStr [65]), VNode 23 [(Some (PIdx 0), leaf 2); (Some (PIdx 1), leaf 2); (None, leaf 22)]);
     (* b is unexported: no element *)
     (Some (PStr [77]), leaf 24);
     (Some (PStr [77]),
      VNode 21 [(Some (PStr [97]), leaf 24); (Some (PStr [97]), leaf 22);                       (* "a": nil *)
                (Some (PStr [122]), leaf 24); (Some (PStr [122]), VNode 22 [(None, leaf 3)]);   (* "z": *int8 -> int8 *)
                (None, leaf 22)]);
     (Some (PStr [80]), leaf 24);
     (Some (PStr [80]), VNode 20 [(None, VNode 17 [(Some (PIdx 0), leaf 1); (None, leaf 22)])]);
     (Some (PStr [84]), leaf 24);
     (Some (PStr [84]), VNode 25 [(None, leaf 24)]);
     (Some (PStr [70]), leaf 24);
     (Some (PStr [70]), VNode 19 [(Some (PIdx 0), leaf 1); (Some (PIdx 1), leaf 24); (None, leaf 22)]);
     (None, leaf 22)].
Proof. vm_compute. reflexivity. Qed.

Example ex_taps :
  mtaps default_opts t_ex v_ex [] = paths_of default_opts t_ex v_ex [] /\
  mtaps default_opts t_ex v_ex [] =
  [([], 25);
   ([PStr [65]], 24); ([PStr [65]], 23); ([PStr [65]; PIdx 0], 2); ([PStr [65]; PIdx 1], 2); ([PStr [65]], 22);
   ([PStr [77]], 24); ([PStr [77]], 21);
     ([PStr [77]; PStr [97]], 24); ([PStr [77]; PStr [97]], 22);
     ([PStr [77]; PStr [122]], 24); ([PStr [77]; PStr [122]], 22); ([PStr [77]; PStr [122]], 3);
     ([PStr [77]], 22);
   ([PStr [80]], 24); ([PStr [80]], 20); ([PStr [80]], 17); ([PStr [80]; PIdx 0], 1); ([PStr [80]], 22);
   ([PStr [84]], 24); ([PStr [84]], 25); ([PStr [84]], 24);
   ([PStr [70]], 24); ([PStr [70]], 19); ([PStr [70]; PIdx 0], 1); ([PStr [70]; PIdx 1], 24); ([PStr [70]], 22);
   ([], 22)].
Proof. split; vm_compute; reflexivity. Qed.

Example ex_count : length (mtaps default_opts t_ex v_ex []) = 28%nat /\ vsize (elements default_opts t_ex v_ex) = 28%nat.
Proof. split; vm_compute; reflexivity. Qed.

Example ex_no_maps :
  no_maps (GList false [GPtr (Some (GInt 1)); GPtr None]) = true /\
  mtaps default_opts (TSlice (TPtr (TInt WNat))) (GList false [GPtr (Some (GInt 1)); GPtr None]) [PStr [120]] =
  [([PStr [120]], 23); ([PStr [120]; PIdx 0], 22); ([PStr [120]; PIdx 0], 2); ([PStr [120]; PIdx 1], 22);
   ([PStr [120]], 22)].
Proof. split; vm_compute; reflexivity. Qed.

Example ex_siblings :   (* the hypotheses of sibling_taps_disjoint on two items of one slice *)
  PIdx 0 <> PIdx 1 /\
  In ([PStr [65]; PIdx 0], 2) (mtaps default_opts (TInt WNat) (GInt 5) ([PStr [65]] ++ [PIdx 0])) /\
  In ([PStr [65]; PIdx 1], 2) (mtaps default_opts (TInt WNat) (GInt 6) ([PStr [65]] ++ [PIdx 1])).
Proof. split; [discriminate|]. split; left; reflexivity. Qed.

End TapsP.

Definition PathsP_main_theorems :=
  (AliasP.snapshot_stable, AliasP.view_stable_general, AliasP.view_stable_own, AliasP.view_stable_when_full,
   AliasP.view_refuted, AliasP.hdrs_stable_exact_growth, AliasP.hdrs_refuted,
   AliasP.runs_taps_true_paths, AliasP.runs_independent, AliasP.runs_from_root,
   TapsP.marshal_taps_are_paths, TapsP.marshal_taps_are_paths_no_maps, TapsP.marshal_taps_are_paths_refuted,
   TapsP.root_tap_path, TapsP.taps_extend_root, TapsP.sibling_taps_disjoint, TapsP.taps_count).
Print Assumptions PathsP_main_theorems.
