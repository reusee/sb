(* Proofs/MarshalP.v — the marshaller model (Model/Marshal.v).  The first half is tools, imported by every
   proof file over typed values; the second half is C08 (restated in Properties/C08.v).
   Tools:
     induction on values     [gval_ind3], [gval_ind2]
     [marshal] under names   [marshal_list] .. [marshal_outs], [marshal_body]; [marshal_eq], [marshal_*_cons],
                             [marshal_inv], [bind_ok]
     goals over a result     [on_ok], [on_ok_bind] .. [on_ok_eq] (used here only, like [okb])
     [has_type] under names  [typed_list] .. [typed_outs], [typed_*_cons]; [has_type_list] .. [has_type_func];
                             [has_type_elems] .. [has_type_outs]; [has_type_struct_inv] .. [has_type_func_inv];
                             [wf_ty_elem] .. [wf_ty_outs]
     loops as concatenations [concat_res]; [marshal_list_spec], [marshal_outs_spec], [marshal_fields_seq],
                             [marshal_fields_spec]; [entry_rel], [marshal_entries_ok]
   C08:
     reference mapping       [marshal_ptr] .. [marshal_ptr_named]; [marshal_unreg], [marshal_named_unreg],
                             [marshal_named_reg], [marshal_named_reg_gen]; scalars [marshal_bool] ..
                             [marshal_byte_array]; [marshal_slice], [marshal_array], [marshal_struct],
                             [marshal_func], [marshal_func_nil], [marshal_func_ignored]
     tokens well formed      [wf_dyn], [marshal_wfP], [marshal_tokens_wf]
     never empty, NaN keys   [nan_like], [nonempty_nan], [marshal_nonempty], [bad_key_nan_like]
     totality                [no_bad_keys], [okb], [marshal_totP], [marshal_ok_or_bad_key],
                             [marshal_total_strong], [marshal_total]
     map entries sorted      [key_le_lex], [sort_entries_sorted], [sort_entries_strict], [keys_distinct],
                             [map_sorted_gen], [map_sorted]
     iteration order         [sort_entries_perm_eq], [marshal_entries_perm], [marshal_map_perm_gen],
                             [marshal_map_perm], [marshal_map_perm_needs_distinct]
     NaN key rejected        [bad_key_rejected], [bad_key_rejected_anywhere] *)
From Coq Require Import List NArith ZArith Bool Lia ZifyBool ZifyNat ZifyN Permutation Sorted.
From SbModel Require Import Base.Bytes Base.Tokens Base.Floats Model.Types Model.Compare Model.Marshal.
From SbModel Require Import Spec.LexOrder Spec.Conform.
From SbModel Require Import Proofs.CompareP.
Import ListNotations.
Local Open Scope N_scope.

Lemma width_eqb_true w w' : width_eqb w w' = true -> w = w'.
Proof. destruct w, w'; intros H; try discriminate H; reflexivity. Qed.

Lemma bytes_eqb_refl a : bytes_eqb a a = true.
Proof. apply BytesP.bytes_eqb_eq. reflexivity. Qed.

Lemma bytes_eqb_true a b : bytes_eqb a b = true -> a = b.
Proof. apply BytesP.bytes_eqb_eq. Qed.

Lemma bytes_eqb_sym a b : bytes_eqb a b = bytes_eqb b a.
Proof. apply eq_true_iff_eq. split; intros H; apply bytes_eqb_true in H; subst; apply bytes_eqb_refl. Qed.

(* [f] is a parameter outside the fix, so that the guard checker sees through a call
   [Forall_all P rec l] with [rec] the function being defined *)
Definition Forall_all {A} (P : A -> Prop) (f : forall x, P x) : forall l, Forall P l :=
  fix go (l : list A) : Forall P l :=
    match l with [] => Forall_nil _ | x :: r => Forall_cons _ (f x) (go r) end.

(* induction on values with a hypothesis for every value nested in [v]: list items, both components of a
   map entry, struct fields, pointee, the dynamic value of an interface, func results *)
Section gval_ind3.
  Variable P : gval -> Prop.
  Hypothesis Hbool : forall b, P (GBool b).
  Hypothesis Hint : forall z, P (GInt z).
  Hypothesis Huint : forall n, P (GUint n).
  Hypothesis Hf32 : forall b, P (GF32 b).
  Hypothesis Hf64 : forall b, P (GF64 b).
  Hypothesis Hstr : forall s, P (GStr s).
  Hypothesis Hbytes : forall n s, P (GBytes n s).
  Hypothesis Hlist : forall n items, Forall P items -> P (GList n items).
  Hypothesis Hmap : forall n es, Forall (fun e => P (fst e) /\ P (snd e)) es -> P (GMap n es).
  Hypothesis Hstruct : forall vals, Forall P vals -> P (GStruct vals).
  Hypothesis Hptr0 : P (GPtr None).
  Hypothesis Hptr : forall x, P x -> P (GPtr (Some x)).
  Hypothesis Hany0 : P (GAny None).
  Hypothesis Hany : forall t x, P x -> P (GAny (Some (t, x))).
  Hypothesis Hfunc0 : P (GFunc None).
  Hypothesis Hfunc : forall items, Forall P items -> P (GFunc (Some items)).
  Hypothesis Htime : forall enc, P (GTime enc).
  Fixpoint gval_ind3 (v : gval) : P v :=
    match v with
    | GBool b => Hbool b | GInt z => Hint z | GUint n => Huint n
    | GF32 b => Hf32 b | GF64 b => Hf64 b | GStr s => Hstr s | GBytes n s => Hbytes n s
    | GList n items => Hlist n items (Forall_all P gval_ind3 items)
    | GMap n es =>
        Hmap n es (Forall_all _ (fun e => match e as e0 return P (fst e0) /\ P (snd e0) with
                                          | (k, x) => conj (gval_ind3 k) (gval_ind3 x)
                                          end) es)
    | GStruct vals => Hstruct vals (Forall_all P gval_ind3 vals)
    | GPtr None => Hptr0
    | GPtr (Some x) => Hptr x (gval_ind3 x)
    | GAny None => Hany0
    | GAny (Some (t, x)) => Hany t x (gval_ind3 x)
    | GFunc None => Hfunc0
    | GFunc (Some items) => Hfunc items (Forall_all P gval_ind3 items)
    | GTime enc => Htime enc
    end.
End gval_ind3.

(* [gval_ind3] with no hypothesis under [GMap], [GAny] and [GFunc]: for statements in which these three are
   leaves, as they are over [simple_ty] types (Spec/Conform.v), whose [has_type] excludes them *)
Section gval_ind2.
  Variable P : gval -> Prop.
  Hypothesis Hbool : forall b, P (GBool b).
  Hypothesis Hint : forall z, P (GInt z).
  Hypothesis Huint : forall n, P (GUint n).
  Hypothesis Hf32 : forall b, P (GF32 b).
  Hypothesis Hf64 : forall b, P (GF64 b).
  Hypothesis Hstr : forall s, P (GStr s).
  Hypothesis Hbytes : forall n s, P (GBytes n s).
  Hypothesis Hlist : forall n l, Forall P l -> P (GList n l).
  Hypothesis Hmap : forall n es, P (GMap n es).
  Hypothesis Hstruct : forall l, Forall P l -> P (GStruct l).
  Hypothesis Hpnil : P (GPtr None).
  Hypothesis Hptr : forall x, P x -> P (GPtr (Some x)).
  Hypothesis Hany : forall d, P (GAny d).
  Hypothesis Hfunc : forall r, P (GFunc r).
  Hypothesis Htime : forall e, P (GTime e).
  Definition gval_ind2 : forall v, P v :=
    gval_ind3 P Hbool Hint Huint Hf32 Hf64 Hstr Hbytes Hlist (fun n es _ => Hmap n es) Hstruct Hpnil Hptr
              (Hany None) (fun t x _ => Hany (Some (t, x))) (Hfunc None) (fun l _ => Hfunc (Some l)) Htime.
End gval_ind2.

(* the local fixpoints of [marshal] and [has_type] under names of their own; [marshal_eq] and the
   [has_type_*] equations tie them back *)
Definition marshal_list (o : copts) (et : ty) : list gval -> res (list token) :=
  fix go (l : list gval) : res (list token) :=
    match l with
    | [] => Ok []
    | x :: r => bind (marshal o et x) (fun a => bind (go r) (fun b => Ok (a ++ b)))
    end.

Definition marshal_entries (o : copts) (kt vt : ty) : list (gval * gval) -> res (list entry) :=
  fix go (l : list (gval * gval)) : res (list entry) :=
    match l with
    | [] => Ok []
    | (k, x) :: r =>
        bind (marshal default_opts kt k) (fun sortkey =>
        if bad_map_key sortkey then Err EBadMapKey else
        bind (go r) (fun rest =>
        bind (marshal o kt k) (fun kts =>
        bind (marshal o vt x) (fun vts => Ok ((sortkey, kts, vts) :: rest)))))
    end.

Definition marshal_fields (o : copts) : list gval -> list (bytes * bool * ty) -> res (list token) :=
  fix go (l : list gval) (f : list (bytes * bool * ty)) : res (list token) :=
    match l, f with
    | x :: r, fd :: fr =>
        if skip_empty o && (is_zero (snd fd) x || (is_slice_kind (snd fd) && Nat.eqb (glen x) 0)) then go r fr
        else if negb (fexported fd) then go r fr
        else bind (marshal o (snd fd) x) (fun a =>
             bind (go r fr) (fun b => Ok (T KString (VStr (fname fd)) :: a ++ b)))
    | _, _ => Ok []
    end.

Definition marshal_outs (o : copts) : list gval -> list ty -> res (list token) :=
  fix go (l : list gval) (ts : list ty) : res (list token) :=
    match l, ts with
    | x :: r', xt :: tr => bind (marshal o xt x) (fun a => bind (go r' tr) (fun b => Ok (a ++ b)))
    | _, _ => Ok []
    end.

Definition elem_ty (t : ty) : ty := match underlying t with TArray _ e | TSlice e => e | _ => TAny end.
Definition map_kt (t : ty) : ty := match underlying t with TMap k _ => k | _ => TAny end.
Definition map_vt (t : ty) : ty := match underlying t with TMap _ v => v | _ => TAny end.
Definition struct_fs (t : ty) : list (bytes * bool * ty) := match underlying t with TStruct fs => fs | _ => [] end.
Definition ptr_ty (t : ty) : ty := match underlying t with TPtr e => e | _ => TAny end.
Definition func_outs (t : ty) : list ty := match underlying t with TFunc outs => outs | _ => [] end.

Definition map_stream (es : list entry) : list token :=
  T KMap VNone :: flat_map (fun e => snd (fst e) ++ snd e) (sort_entries es) ++ [T KMapEnd VNone].

Definition marshal_body (o : copts) (t : ty) (v : gval) : res (list token) :=
  match v with
  | GBool b => Ok [T KBool (VBool b)]
  | GInt z => match underlying t with
              | TInt w => Ok [T (kind_of_int w) (VI w z)]
              | _ => Err EOther
              end
  | GUint n => match underlying t with
               | TUint w => Ok [T (kind_of_uint w) (VU w n)]
               | TUintptr => Ok [T KPointer (VPtr n)]
               | _ => Err EOther
               end
  | GF32 b => if f32_is_nan b then Ok [T KNaN VNone] else Ok [T KFloat32 (VF32 b)]
  | GF64 b => if f64_is_nan b then Ok [T KNaN VNone] else Ok [T KFloat64 (VF64 b)]
  | GStr s => Ok [T KString (VStr s)]
  | GBytes _ s => Ok [T KBytes (VBytes s)]
  | GTime enc => Ok [T KString (VStr enc)]
  | GList _ items =>
      bind (marshal_list o (elem_ty t) items)
           (fun body => Ok (T KArray VNone :: body ++ [T KArrayEnd VNone]))
  | GMap _ entries =>
      bind (marshal_entries o (map_kt t) (map_vt t) entries) (fun es => Ok (map_stream es))
  | GStruct vals =>
      bind (marshal_fields o vals (struct_fs t))
           (fun body => Ok (T KObject VNone :: body ++ [T KObjectEnd VNone]))
  | GPtr None => Ok [T KNil VNone]
  | GPtr (Some x) => marshal o (ptr_ty t) x
  | GAny None => Ok [T KNil VNone]
  | GAny (Some (t', x)) => marshal o t' x
  | GFunc r =>
      if ignore_funcs o then Ok [T KNil VNone]
      else match r with
           | None => Ok [T KTuple VNone; T KTupleEnd VNone]
           | Some items =>
               bind (marshal_outs o items (func_outs t))
                    (fun body => Ok (T KTuple VNone :: body ++ [T KTupleEnd VNone]))
           end
  end.

(* the one place where [marshal] does not read like [marshal_body]: its map case takes key and
   value type out of one match *)
Lemma map_tys t :
  match underlying t with TMap k v => (k, v) | _ => (TAny, TAny) end = (map_kt t, map_vt t).
Proof. unfold map_kt, map_vt. destruct (underlying t); reflexivity. Qed.

Lemma marshal_eq o t v :
  marshal o t v = bind (marshal_body o t v) (fun ts => Ok (reg_prefix t ++ ts)).
Proof.
  destruct v as [b|z|n|b|b|s|n s|n items|n es|vals|p|d|r|enc]; try reflexivity.
  cbn [marshal]. rewrite map_tys. reflexivity.
Qed.

Lemma marshal_list_cons o et x r :
  marshal_list o et (x :: r) =
  bind (marshal o et x) (fun a => bind (marshal_list o et r) (fun b => Ok (a ++ b))).
Proof. reflexivity. Qed.

Lemma marshal_entries_cons o kt vt k x r :
  marshal_entries o kt vt ((k, x) :: r) =
  bind (marshal default_opts kt k) (fun sortkey =>
  if bad_map_key sortkey then Err EBadMapKey else
  bind (marshal_entries o kt vt r) (fun rest =>
  bind (marshal o kt k) (fun kts =>
  bind (marshal o vt x) (fun vts => Ok ((sortkey, kts, vts) :: rest))))).
Proof. reflexivity. Qed.

Lemma marshal_fields_cons o x r fd fr :
  marshal_fields o (x :: r) (fd :: fr) =
  if skip_empty o && (is_zero (snd fd) x || (is_slice_kind (snd fd) && Nat.eqb (glen x) 0)) then marshal_fields o r fr
  else if negb (fexported fd) then marshal_fields o r fr
  else bind (marshal o (snd fd) x) (fun a =>
       bind (marshal_fields o r fr) (fun b => Ok (T KString (VStr (fname fd)) :: a ++ b))).
Proof. reflexivity. Qed.

Lemma marshal_outs_cons o x r xt tr :
  marshal_outs o (x :: r) (xt :: tr) =
  bind (marshal o xt x) (fun a => bind (marshal_outs o r tr) (fun b => Ok (a ++ b))).
Proof. reflexivity. Qed.

Lemma marshal_inv o t v ts :
  marshal o t v = Ok ts -> exists b, marshal_body o t v = Ok b /\ ts = reg_prefix t ++ b.
Proof.
  rewrite marshal_eq. destruct (marshal_body o t v) as [b|e|]; cbn [bind]; intros H; try discriminate.
  exists b. split; [reflexivity|]. inversion H. reflexivity.
Qed.

Lemma bind_ok {A B} (r : res A) (k : A -> res B) b :
  bind r k = Ok b -> exists a, r = Ok a /\ k a = Ok b.
Proof. destruct r as [a|e|]; cbn [bind]; intros H; try discriminate. exists a. split; [reflexivity|exact H]. Qed.

(* a property of the result, if there is one: goals of this form follow the shape of the
   program through [on_ok_bind], with no equations to invert *)
Definition on_ok {A} (P : A -> Prop) (r : res A) : Prop :=
  match r with Ok a => P a | _ => True end.

Lemma on_ok_bind {A B} (P : B -> Prop) (r : res A) (k : A -> res B) :
  on_ok (fun a => on_ok P (k a)) r -> on_ok P (bind r k).
Proof. destruct r; exact (fun H => H). Qed.

Lemma on_ok_bind_eq {A B} (P : B -> Prop) (r : res A) (k : A -> res B) :
  (forall a, r = Ok a -> on_ok P (k a)) -> on_ok P (bind r k).
Proof. destruct r as [a| |]; intros H; [exact (H a eq_refl) | exact I | exact I]. Qed.

Lemma on_ok_impl {A} (P Q : A -> Prop) (r : res A) : (forall a, P a -> Q a) -> on_ok P r -> on_ok Q r.
Proof. intros H. destruct r as [a| |]; [exact (H a) | exact (fun H => H) | exact (fun H => H)]. Qed.

Lemma on_ok_all {A} (P : A -> Prop) (r : res A) : (forall a, P a) -> on_ok P r.
Proof. intros H. destruct r as [a| |]; [exact (H a) | exact I | exact I]. Qed.

Lemma on_ok_eq {A} (P : A -> Prop) (r : res A) a : on_ok P r -> r = Ok a -> P a.
Proof. intros H E. rewrite E in H. exact H. Qed.

Definition typed_list (e : ty) : list gval -> bool :=
  fix all (l : list gval) : bool := match l with [] => true | x :: r => has_type e x && all r end.
Definition typed_entries (kt vt : ty) : list (gval * gval) -> bool :=
  fix all (l : list (gval * gval)) : bool :=
    match l with [] => true | (k, x) :: r => has_type kt k && has_type vt x && all r end.
Definition typed_fields : list gval -> list (bytes * bool * ty) -> bool :=
  fix all (l : list gval) (f : list (bytes * bool * ty)) : bool :=
    match l, f with
    | [], [] => true
    | x :: r, fd :: fr => has_type (snd fd) x && all r fr
    | _, _ => false
    end.
Definition typed_outs : list gval -> list ty -> bool :=
  fix all (l : list gval) (ts : list ty) : bool :=
    match l, ts with
    | [], [] => true
    | x :: r', xt :: tr => has_type xt x && all r' tr
    | _, _ => false
    end.

Lemma typed_list_cons e x r : typed_list e (x :: r) = has_type e x && typed_list e r.
Proof. reflexivity. Qed.
Lemma typed_entries_cons kt vt k x r :
  typed_entries kt vt ((k, x) :: r) = has_type kt k && has_type vt x && typed_entries kt vt r.
Proof. reflexivity. Qed.
Lemma typed_fields_cons x r fd fr : typed_fields (x :: r) (fd :: fr) = has_type (snd fd) x && typed_fields r fr.
Proof. reflexivity. Qed.
Lemma typed_outs_cons x r xt tr : typed_outs (x :: r) (xt :: tr) = has_type xt x && typed_outs r tr.
Proof. reflexivity. Qed.

Lemma has_type_list t n items :
  has_type t (GList n items) =
  match underlying t with
  | TArray k e => negb n && Nat.eqb (length items) k && typed_list e items
  | TSlice e => (negb n || match items with [] => true | _ => false end) && typed_list e items
  | _ => false
  end.
Proof. reflexivity. Qed.

Lemma has_type_map t n es :
  has_type t (GMap n es) =
  match underlying t with
  | TMap kt vt => (negb n || match es with [] => true | _ => false end) && typed_entries kt vt es
  | _ => false
  end.
Proof. reflexivity. Qed.

Lemma has_type_struct t vals :
  has_type t (GStruct vals) =
  match underlying t with TStruct fs => typed_fields vals fs | _ => false end.
Proof. reflexivity. Qed.

Lemma has_type_func t r :
  has_type t (GFunc r) =
  match underlying t, r with
  | TFunc _, None => true
  | TFunc outs, Some items => typed_outs items outs
  | _, _ => false
  end.
Proof. reflexivity. Qed.

Lemma typed_list_Forall e items : typed_list e items = true -> Forall (fun x => has_type e x = true) items.
Proof.
  induction items as [|x r IH]; cbn [typed_list]; intros H; constructor.
  - apply andb_true_iff in H. apply H.
  - apply IH. apply andb_true_iff in H. apply H.
Qed.

Definition typed_entry (kt vt : ty) (p : gval * gval) : Prop :=
  has_type kt (fst p) = true /\ has_type vt (snd p) = true.

Lemma typed_entries_Forall kt vt es : typed_entries kt vt es = true -> Forall (typed_entry kt vt) es.
Proof.
  induction es as [|[k x] r IH]; cbn [typed_entries]; intros H; constructor.
  - apply andb_true_iff in H. destruct H as [H _]. apply andb_true_iff in H. exact H.
  - apply IH. apply andb_true_iff in H. apply H.
Qed.

Lemma wf_underlying t : wf_ty t = true -> wf_ty (underlying t) = true.
Proof.
  induction t as [| | | | | | | | | | | |fs _| | |outs _|n r d u IHu|] using ty_ind2; cbn [underlying]; intros Hw; try exact Hw.
  apply IHu. cbn [wf_ty] in Hw. apply andb_true_iff in Hw. apply Hw.
Qed.

Lemma typed_fields_combine : forall vals fs, typed_fields vals fs = true ->
  Forall (fun p => has_type (snd (fst p)) (snd p) = true) (combine fs vals).
Proof.
  induction vals as [|x r IH]; intros [|fd fr] H; try discriminate H; constructor;
    cbn [typed_fields] in H; apply andb_true_iff in H.
  - apply H.
  - apply IH, H.
Qed.

Lemma typed_outs_combine : forall items outs, typed_outs items outs = true ->
  Forall (fun p => has_type (snd p) (fst p) = true) (combine items outs).
Proof.
  induction items as [|x r IH]; intros [|xt tr] H; try discriminate H; constructor;
    cbn [typed_outs] in H; apply andb_true_iff in H.
  - apply H.
  - apply IH, H.
Qed.

Lemma has_type_elems t n items : has_type t (GList n items) = true ->
  Forall (fun x => has_type (elem_ty t) x = true) items.
Proof.
  rewrite has_type_list. unfold elem_ty. intros H. apply typed_list_Forall.
  destruct (underlying t); try discriminate H; apply andb_true_iff in H; apply H.
Qed.

Lemma has_type_entries t n es : has_type t (GMap n es) = true ->
  Forall (typed_entry (map_kt t) (map_vt t)) es.
Proof.
  rewrite has_type_map. unfold map_kt, map_vt. intros H. apply typed_entries_Forall.
  destruct (underlying t); try discriminate H. apply andb_true_iff in H. apply H.
Qed.

Lemma has_type_fields t vals : has_type t (GStruct vals) = true ->
  Forall (fun p => has_type (snd (fst p)) (snd p) = true) (combine (struct_fs t) vals).
Proof.
  rewrite has_type_struct. unfold struct_fs. intros H. apply typed_fields_combine.
  destruct (underlying t); try discriminate H. exact H.
Qed.

Lemma has_type_pointee t x : has_type t (GPtr (Some x)) = true -> has_type (ptr_ty t) x = true.
Proof. cbn [has_type]. unfold ptr_ty. destruct (underlying t); try discriminate. exact (fun H => H). Qed.

Lemma has_type_dynamic t t' x : has_type t (GAny (Some (t', x))) = true -> has_type t' x = true.
Proof. cbn [has_type]. destruct (underlying t); try discriminate. exact (fun H => H). Qed.

Lemma has_type_outs t items : has_type t (GFunc (Some items)) = true ->
  Forall (fun p => has_type (snd p) (fst p) = true) (combine items (func_outs t)).
Proof.
  rewrite has_type_func. unfold func_outs. intros H. apply typed_outs_combine.
  destruct (underlying t); try discriminate H. exact H.
Qed.

Lemma has_type_struct_inv t l : has_type t (GStruct l) = true ->
  exists fs, underlying t = TStruct fs /\ typed_fields l fs = true.
Proof. rewrite has_type_struct. destruct (underlying t); try discriminate. intros H. eexists. split; [reflexivity|exact H]. Qed.

Lemma has_type_map_inv t n es : has_type t (GMap n es) = true ->
  exists kt vt, underlying t = TMap kt vt /\
                (negb n || match es with [] => true | _ => false end) = true /\ typed_entries kt vt es = true.
Proof.
  rewrite has_type_map. destruct (underlying t); try discriminate. intros H. apply andb_true_iff in H.
  eexists _, _. split; [reflexivity|exact H].
Qed.

Lemma has_type_ptr_inv t p : has_type t (GPtr p) = true ->
  exists e, underlying t = TPtr e /\ match p with Some x => has_type e x = true | None => True end.
Proof.
  cbn [has_type]. destruct (underlying t); try (destruct p; discriminate). intros H.
  eexists. split; [reflexivity|]. destruct p; [exact H|exact I].
Qed.

Lemma has_type_any_inv t d : has_type t (GAny d) = true ->
  underlying t = TAny /\ match d with Some (t', x) => has_type t' x = true | None => True end.
Proof.
  cbn [has_type]. destruct (underlying t); try (destruct d as [[? ?]|]; discriminate). intros H.
  split; [reflexivity|]. destruct d as [[t' x]|]; [exact H|exact I].
Qed.

Lemma has_type_func_inv t r : has_type t (GFunc r) = true ->
  exists outs, underlying t = TFunc outs /\ match r with Some l => typed_outs l outs = true | None => True end.
Proof.
  rewrite has_type_func. destruct (underlying t); try (destruct r; discriminate). intros H.
  eexists. split; [reflexivity|]. destruct r; [exact H|exact I].
Qed.

Lemma wf_ty_elem t : wf_ty t = true -> wf_ty (elem_ty t) = true.
Proof.
  intros H. apply wf_underlying in H. unfold elem_ty. destruct (underlying t); try reflexivity; exact H.
Qed.

Lemma wf_ty_map t : wf_ty t = true -> wf_ty (map_kt t) = true /\ wf_ty (map_vt t) = true.
Proof.
  intros H. apply wf_underlying in H. unfold map_kt, map_vt.
  destruct (underlying t); try (split; reflexivity). apply andb_true_iff. exact H.
Qed.

Lemma wf_ty_fields t : wf_ty t = true ->
  forallb (fun f => wf_bytesb (fname f) && wf_ty (snd f)) (struct_fs t) = true.
Proof.
  intros H. apply wf_underlying in H. unfold struct_fs. destruct (underlying t); try reflexivity.
  cbn [wf_ty] in H. apply andb_true_iff in H. apply H.
Qed.

Lemma wf_ty_ptr t : wf_ty t = true -> wf_ty (ptr_ty t) = true.
Proof.
  intros H. apply wf_underlying in H. unfold ptr_ty. destruct (underlying t); try reflexivity; exact H.
Qed.

Lemma wf_ty_outs t : wf_ty t = true -> forallb wf_ty (func_outs t) = true.
Proof.
  intros H. apply wf_underlying in H. unfold func_outs. destruct (underlying t); try reflexivity; exact H.
Qed.

Fixpoint concat_res (l : list (res (list token))) : res (list token) :=
  match l with
  | [] => Ok []
  | r :: rest => bind r (fun a => bind (concat_res rest) (fun b => Ok (a ++ b)))
  end.

Lemma concat_res_on_ok (Q : token -> Prop) l :
  Forall (on_ok (Forall Q)) l -> on_ok (Forall Q) (concat_res l).
Proof.
  induction 1 as [|r l Hr _ IH]; [constructor|]. cbn [concat_res].
  apply on_ok_bind. revert Hr. apply on_ok_impl. intros a Ha.
  apply on_ok_bind. revert IH. apply on_ok_impl. intros b Hb.
  apply Forall_app. split; assumption.
Qed.

Theorem marshal_list_spec o et items :
  marshal_list o et items = concat_res (map (marshal o et) items).
Proof.
  induction items as [|x r IH]; [reflexivity|].
  rewrite marshal_list_cons. cbn [map concat_res]. rewrite IH. reflexivity.
Qed.

Lemma marshal_outs_spec o : forall items outs,
  marshal_outs o items outs = concat_res (map (fun p => marshal o (snd p) (fst p)) (combine items outs)).
Proof.
  induction items as [|x r IH]; intros [|xt tr]; try reflexivity.
  rewrite marshal_outs_cons. cbn [combine map concat_res fst snd]. rewrite IH. reflexivity.
Qed.

Definition field_stream (o : copts) (p : (bytes * bool * ty) * gval) : res (list token) :=
  bind (marshal o (snd (fst p)) (snd p)) (fun a => Ok (T KString (VStr (fname (fst p))) :: a)).

(* Model/Marshal.v [marshal_fields]: an unexported field is never written; with skip_empty neither is one
   that IsZero or is of a slice kind and of length 0 *)
Definition emitted (se : bool) (fd : bytes * bool * ty) (x : gval) : bool :=
  fexported fd && negb (se && (is_zero (snd fd) x || (is_slice_kind (snd fd) && Nat.eqb (glen x) 0))).

Lemma emitted_false fd x : emitted false fd x = fexported fd.
Proof. apply andb_true_r. Qed.

Lemma marshal_fields_seq o : forall vals fs,
  marshal_fields o vals fs =
  concat_res (map (field_stream o) (filter (fun p => emitted (skip_empty o) (fst p) (snd p)) (combine fs vals))).
Proof.
  induction vals as [|x r IH]; intros [|fd fr]; try reflexivity.
  rewrite marshal_fields_cons. cbn [combine filter]. unfold emitted at 1. cbn [fst snd].
  destruct (skip_empty o && _); cbn [negb]; [rewrite andb_false_r; apply IH|].
  destruct (fexported fd); [|apply IH].
  cbn [negb andb map concat_res]. unfold field_stream at 1. cbn [fst snd]. rewrite IH.
  destruct (marshal o (snd fd) x); reflexivity.
Qed.

Definition struct_body (o : copts) (fs : list (bytes * bool * ty)) (vals : list gval) : res (list token) :=
  concat_res (map (fun p => bind (marshal o (snd (fst p)) (snd p))
                                 (fun a => Ok (T KString (VStr (fname (fst p))) :: a)))
                  (filter (fun p => fexported (fst p)) (combine fs vals))).

Lemma marshal_fields_spec o : skip_empty o = false -> forall vals fs,
  marshal_fields o vals fs = struct_body o fs vals.
Proof.
  intros Hs vals fs. rewrite marshal_fields_seq. unfold struct_body.
  rewrite (filter_ext _ (fun p => fexported (fst p))); [reflexivity|].
  intros p. rewrite Hs. apply emitted_false.
Qed.

Definition sk (e : entry) : list token := fst (fst e).

Definition entry_rel (o : copts) (kt vt : ty) (p : gval * gval) (e : entry) : Prop :=
  marshal default_opts kt (fst p) = Ok (fst (fst e)) /\
  marshal o kt (fst p) = Ok (snd (fst e)) /\
  marshal o vt (snd p) = Ok (snd e).

Lemma marshal_entries_rel o kt vt m :
  on_ok (fun es => Forall2 (entry_rel o kt vt) m es /\ Forall (fun e => bad_map_key (sk e) = false) es)
        (marshal_entries o kt vt m).
Proof.
  induction m as [|[k x] r IH]; [split; constructor|]. rewrite marshal_entries_cons.
  apply on_ok_bind_eq. intros s Hs. destruct (bad_map_key s) eqn:Ebad; [exact I|].
  apply on_ok_bind. revert IH. apply on_ok_impl. intros rest [Hrel Hgood].
  apply on_ok_bind_eq. intros kts Hkts. apply on_ok_bind_eq. intros vts Hvts.
  split; constructor; try assumption. repeat split; assumption.
Qed.

Lemma marshal_entries_ok o kt vt m es :
  marshal_entries o kt vt m = Ok es <->
  Forall2 (entry_rel o kt vt) m es /\ Forall (fun e => bad_map_key (sk e) = false) es.
Proof.
  split; [exact (on_ok_eq _ _ _ (marshal_entries_rel o kt vt m))|].
  intros [Hrel Hgood].
  induction Hrel as [|[k x] [[s kts] vts] m es (Hs & Hkts & Hvts) _ IH]; [reflexivity|].
  cbn [fst snd] in Hs, Hkts, Hvts. inversion Hgood as [|? ? Ebad Hgood']; subst. cbn [sk fst] in Ebad.
  rewrite marshal_entries_cons, Hs. cbn [bind]. rewrite Ebad, (IH Hgood'), Hkts, Hvts. reflexivity.
Qed.

Lemma bind_nil_prefix (r : res (list token)) : bind r (fun ts => Ok ([] ++ ts)) = r.
Proof. destruct r; reflexivity. Qed.

Theorem marshal_ptr o t v : marshal o (TPtr t) (GPtr (Some v)) = marshal o t v.
Proof. rewrite (marshal_eq o (TPtr t)). apply bind_nil_prefix. Qed.

Theorem marshal_any o t v : marshal o TAny (GAny (Some (t, v))) = marshal o t v.
Proof. rewrite (marshal_eq o TAny). apply bind_nil_prefix. Qed.

Theorem marshal_nil_ptr o t : marshal o (TPtr t) (GPtr None) = Ok [T KNil VNone].
Proof. reflexivity. Qed.

Theorem marshal_nil_any o : marshal o TAny (GAny None) = Ok [T KNil VNone].
Proof. reflexivity. Qed.

Theorem marshal_ptr_named o t e v : reg_prefix t = [] -> underlying t = TPtr e ->
  marshal o t (GPtr (Some v)) = marshal o e v.
Proof.
  intros Hr Hu. rewrite (marshal_eq o t). rewrite Hr. cbn [marshal_body]. unfold ptr_ty. rewrite Hu.
  apply bind_nil_prefix.
Qed.

Example marshal_ptr_ex :
  marshal default_opts (TPtr (TPtr (TInt W8))) (GPtr (Some (GPtr (Some (GInt 5))))) = Ok [T KInt8 (VI W8 5)] /\
  marshal default_opts TAny (GAny (Some (TPtr TBool, GPtr (Some (GBool true))))) = Ok [T KBool (VBool true)].
Proof. split; reflexivity. Qed.

Lemma underlying_idem t : underlying (underlying t) = underlying t.
Proof.
  induction t as [| | | | | | | | | | | |fs _| | |outs _|n r d u IHu|] using ty_ind2; try reflexivity.
  exact IHu.
Qed.

Lemma marshal_body_underlying o t t' v : underlying t = underlying t' ->
  marshal_body o t v = marshal_body o t' v.
Proof.
  intros E. unfold marshal_body, elem_ty, map_kt, map_vt, struct_fs, ptr_ty, func_outs. rewrite E. reflexivity.
Qed.

Theorem marshal_unreg o t v : reg_prefix t = [] -> marshal o t v = marshal_body o t v.
Proof. intros Hr. rewrite marshal_eq, Hr. apply bind_nil_prefix. Qed.

Theorem marshal_named_unreg o n d u v : reg_prefix u = [] ->
  marshal o (TNamed n false d u) v = marshal o u v.
Proof.
  intros Hr. rewrite (marshal_unreg o (TNamed n false d u)) by reflexivity.
  rewrite (marshal_unreg o u v Hr). apply marshal_body_underlying. reflexivity.
Qed.

Theorem marshal_named_reg o n d u v : reg_prefix u = [] ->
  marshal o (TNamed n true d u) v = bind (marshal o u v) (fun ts => Ok (T KTypeName (VStr n) :: ts)).
Proof.
  intros Hr. rewrite (marshal_eq o (TNamed n true d u)). rewrite (marshal_unreg o u v Hr).
  rewrite (marshal_body_underlying o (TNamed n true d u) u v) by reflexivity. reflexivity.
Qed.

(* only the outermost registered name is emitted: a TypeName prefix of [u] itself is dropped *)
Theorem marshal_named_reg_gen o n d u v :
  marshal o (TNamed n true d u) v =
  bind (marshal_body o (underlying u) v) (fun ts => Ok (T KTypeName (VStr n) :: ts)).
Proof.
  rewrite (marshal_eq o (TNamed n true d u)).
  rewrite (marshal_body_underlying o (TNamed n true d u) (underlying u) v); [reflexivity|].
  cbn [underlying]. symmetry. apply underlying_idem.
Qed.

Theorem marshal_bool o b : marshal o TBool (GBool b) = Ok [T KBool (VBool b)].
Proof. reflexivity. Qed.
Theorem marshal_int o w z : marshal o (TInt w) (GInt z) = Ok [T (kind_of_int w) (VI w z)].
Proof. reflexivity. Qed.
Theorem marshal_uint o w n : marshal o (TUint w) (GUint n) = Ok [T (kind_of_uint w) (VU w n)].
Proof. reflexivity. Qed.
Theorem marshal_uintptr o n : marshal o TUintptr (GUint n) = Ok [T KPointer (VPtr n)].
Proof. reflexivity. Qed.
Theorem marshal_string o s : marshal o TString (GStr s) = Ok [T KString (VStr s)].
Proof. reflexivity. Qed.
Theorem marshal_time o enc : marshal o TTime (GTime enc) = Ok [T KString (VStr enc)].
Proof. reflexivity. Qed.

Theorem marshal_int_under o t w z : reg_prefix t = [] -> underlying t = TInt w ->
  marshal o t (GInt z) = Ok [T (kind_of_int w) (VI w z)].
Proof. intros Hr Hu. rewrite (marshal_unreg o t _ Hr). cbn [marshal_body]. rewrite Hu. reflexivity. Qed.
Theorem marshal_uint_under o t w n : reg_prefix t = [] -> underlying t = TUint w ->
  marshal o t (GUint n) = Ok [T (kind_of_uint w) (VU w n)].
Proof. intros Hr Hu. rewrite (marshal_unreg o t _ Hr). cbn [marshal_body]. rewrite Hu. reflexivity. Qed.
Theorem marshal_uintptr_under o t n : reg_prefix t = [] -> underlying t = TUintptr ->
  marshal o t (GUint n) = Ok [T KPointer (VPtr n)].
Proof. intros Hr Hu. rewrite (marshal_unreg o t _ Hr). cbn [marshal_body]. rewrite Hu. reflexivity. Qed.
Theorem marshal_int_named o n d w z :
  marshal o (TNamed n false d (TInt w)) (GInt z) = Ok [T (kind_of_int w) (VI w z)].
Proof. reflexivity. Qed.
Theorem marshal_int_registered o n d w z :
  marshal o (TNamed n true d (TInt w)) (GInt z) = Ok [T KTypeName (VStr n); T (kind_of_int w) (VI w z)].
Proof. reflexivity. Qed.

Theorem marshal_bool_any o t b : marshal o t (GBool b) = Ok (reg_prefix t ++ [T KBool (VBool b)]).
Proof. rewrite marshal_eq. reflexivity. Qed.
Theorem marshal_string_any o t s : marshal o t (GStr s) = Ok (reg_prefix t ++ [T KString (VStr s)]).
Proof. rewrite marshal_eq. reflexivity. Qed.
Theorem marshal_bytes_any o t n s : marshal o t (GBytes n s) = Ok (reg_prefix t ++ [T KBytes (VBytes s)]).
Proof. rewrite marshal_eq. reflexivity. Qed.
Theorem marshal_f64_any o t b :
  marshal o t (GF64 b) = Ok (reg_prefix t ++ [if f64_is_nan b then T KNaN VNone else T KFloat64 (VF64 b)]).
Proof. rewrite marshal_eq. cbn [marshal_body]. destruct (f64_is_nan b); reflexivity. Qed.
Theorem marshal_f32_any o t b :
  marshal o t (GF32 b) = Ok (reg_prefix t ++ [if f32_is_nan b then T KNaN VNone else T KFloat32 (VF32 b)]).
Proof. rewrite marshal_eq. cbn [marshal_body]. destruct (f32_is_nan b); reflexivity. Qed.

Theorem marshal_f64_nan o b : f64_is_nan b = true -> marshal o TF64 (GF64 b) = Ok [T KNaN VNone].
Proof. intros H. rewrite marshal_f64_any, H. reflexivity. Qed.
Theorem marshal_f64_num o b : f64_is_nan b = false -> marshal o TF64 (GF64 b) = Ok [T KFloat64 (VF64 b)].
Proof. intros H. rewrite marshal_f64_any, H. reflexivity. Qed.
Theorem marshal_f32_nan o b : f32_is_nan b = true -> marshal o TF32 (GF32 b) = Ok [T KNaN VNone].
Proof. intros H. rewrite marshal_f32_any, H. reflexivity. Qed.
Theorem marshal_f32_num o b : f32_is_nan b = false -> marshal o TF32 (GF32 b) = Ok [T KFloat32 (VF32 b)].
Proof. intros H. rewrite marshal_f32_any, H. reflexivity. Qed.

Theorem marshal_bytes o n s : marshal o TBytes (GBytes n s) = Ok [T KBytes (VBytes s)].
Proof. reflexivity. Qed.
Theorem marshal_byte_array o k n s : marshal o (TByteArray k) (GBytes n s) = Ok [T KBytes (VBytes s)].
Proof. reflexivity. Qed.

Theorem marshal_slice o e n items :
  marshal o (TSlice e) (GList n items) =
  bind (concat_res (map (marshal o e) items)) (fun body => Ok (T KArray VNone :: body ++ [T KArrayEnd VNone])).
Proof.
  rewrite (marshal_unreg o (TSlice e)) by reflexivity. cbn [marshal_body].
  rewrite marshal_list_spec. reflexivity.
Qed.

Theorem marshal_array o k e n items :
  marshal o (TArray k e) (GList n items) =
  bind (concat_res (map (marshal o e) items)) (fun body => Ok (T KArray VNone :: body ++ [T KArrayEnd VNone])).
Proof.
  rewrite (marshal_unreg o (TArray k e)) by reflexivity. cbn [marshal_body].
  rewrite marshal_list_spec. reflexivity.
Qed.

Theorem marshal_struct o fs vals : skip_empty o = false ->
  marshal o (TStruct fs) (GStruct vals) =
  bind (struct_body o fs vals) (fun body => Ok (T KObject VNone :: body ++ [T KObjectEnd VNone])).
Proof.
  intros Hs. rewrite (marshal_unreg o (TStruct fs)) by reflexivity. cbn [marshal_body].
  unfold struct_fs. cbn [underlying]. rewrite (marshal_fields_spec o Hs). reflexivity.
Qed.

Example marshal_struct_ex :
  let fs := [([65], true, TInt W8); ([98], false, TString); ([67], true, TBool)] in
  let vals := [GInt 3; GStr [120]; GBool true] in
  struct_body default_opts fs vals =
    Ok [T KString (VStr [65]); T KInt8 (VI W8 3); T KString (VStr [67]); T KBool (VBool true)] /\
  marshal default_opts (TStruct fs) (GStruct vals) =
    Ok [T KObject VNone; T KString (VStr [65]); T KInt8 (VI W8 3);
        T KString (VStr [67]); T KBool (VBool true); T KObjectEnd VNone].
Proof. split; reflexivity. Qed.

Theorem marshal_func o outs items : ignore_funcs o = false -> length items = length outs ->
  marshal o (TFunc outs) (GFunc (Some items)) =
  bind (concat_res (map (fun p => marshal o (snd p) (fst p)) (combine items outs)))
       (fun body => Ok (T KTuple VNone :: body ++ [T KTupleEnd VNone])).
Proof.
  (* the length hypothesis is not needed: [marshal_outs] stops at the shorter list, as [combine] does *)
  intros Hi _. rewrite (marshal_unreg o (TFunc outs)) by reflexivity. cbn [marshal_body].
  rewrite Hi. unfold func_outs. cbn [underlying]. rewrite marshal_outs_spec. reflexivity.
Qed.

Theorem marshal_func_nil o outs : ignore_funcs o = false ->
  marshal o (TFunc outs) (GFunc None) = Ok [T KTuple VNone; T KTupleEnd VNone].
Proof.
  intros Hi. rewrite (marshal_unreg o (TFunc outs)) by reflexivity. cbn [marshal_body]. rewrite Hi. reflexivity.
Qed.

Theorem marshal_func_ignored o outs r : ignore_funcs o = true ->
  marshal o (TFunc outs) (GFunc r) = Ok [T KNil VNone].
Proof.
  intros Hi. rewrite (marshal_unreg o (TFunc outs)) by reflexivity. cbn [marshal_body]. rewrite Hi. reflexivity.
Qed.

Example marshal_func_ex :
  marshal default_opts (TFunc [TInt WNat; TString]) (GFunc (Some [GInt 1; GStr [97]])) =
  Ok [T KTuple VNone; T KInt (VI WNat 1); T KString (VStr [97]); T KTupleEnd VNone].
Proof. reflexivity. Qed.

(* every dynamic type held in an interface inside [v] is [wf_ty]: [has_type t v] with [wf_ty t] says nothing
   about those types, and a registered one contributes a TypeName token *)
Fixpoint wf_dyn (v : gval) : bool :=
  match v with
  | GList _ items => forallb wf_dyn items
  | GStruct vals => forallb wf_dyn vals
  | GMap _ es => forallb (fun e => wf_dyn (fst e) && wf_dyn (snd e)) es
  | GPtr (Some x) => wf_dyn x
  | GAny (Some (t, x)) => wf_ty t && wf_dyn x
  | GFunc (Some items) => forallb wf_dyn items
  | _ => true
  end.

Lemma wf_cmp_intro k v :
  kind_shape k v = true -> wf_val v = true -> not_nan_payload v = true -> wf_cmp (T k v) = true.
Proof.
  intros H1 H2 H3. unfold wf_cmp, wf_token. cbn [kind val]. rewrite H1, H2, H3. reflexivity.
Qed.

Lemma wf_cmps_one tk : wf_cmp tk = true -> wf_cmps [tk].
Proof. intros H. constructor; [exact H | constructor]. Qed.

Lemma wf_cmps_token k v :
  kind_shape k v = true -> wf_val v = true -> not_nan_payload v = true -> wf_cmps [T k v].
Proof. intros H1 H2 H3. apply wf_cmps_one, wf_cmp_intro; assumption. Qed.

Lemma wf_cmps_app a b : wf_cmps a -> wf_cmps b -> wf_cmps (a ++ b).
Proof. intros Ha Hb. apply Forall_app. split; assumption. Qed.

Lemma wf_cmps_bracket k1 k2 body :
  wf_cmp (T k1 VNone) = true -> wf_cmp (T k2 VNone) = true -> wf_cmps body ->
  wf_cmps (T k1 VNone :: body ++ [T k2 VNone]).
Proof.
  intros H1 H2 Hb. constructor; [exact H1|]. apply wf_cmps_app; [exact Hb|]. apply wf_cmps_one. exact H2.
Qed.

Lemma reg_prefix_wf t : wf_ty t = true -> wf_cmps (reg_prefix t).
Proof.
  intros Hw. destruct t; try constructor. destruct reg; [|constructor].
  cbn [reg_prefix]. apply wf_cmps_token; [reflexivity | | reflexivity].
  cbn [wf_ty] in Hw. apply andb_true_iff in Hw. apply Hw.
Qed.

Definition wfP (v : gval) : Prop :=
  forall o t, wf_ty t = true -> has_type t v = true -> wf_dyn v = true -> on_ok wf_cmps (marshal o t v).

Lemma wf_of_body o t v : wf_ty t = true -> on_ok wf_cmps (marshal_body o t v) -> on_ok wf_cmps (marshal o t v).
Proof.
  intros Hw H. rewrite marshal_eq. apply on_ok_bind. revert H. apply on_ok_impl.
  intros b Hb. apply wf_cmps_app; [apply reg_prefix_wf; exact Hw | exact Hb].
Qed.

Lemma wf_bracketed k1 k2 (r : res (list token)) :
  wf_cmp (T k1 VNone) = true -> wf_cmp (T k2 VNone) = true -> on_ok wf_cmps r ->
  on_ok wf_cmps (bind r (fun body => Ok (T k1 VNone :: body ++ [T k2 VNone]))).
Proof.
  intros H1 H2 H. apply on_ok_bind. revert H. apply on_ok_impl.
  intros body Hb. apply wf_cmps_bracket; assumption.
Qed.

Definition wf_entry (e : entry) : Prop :=
  wf_cmps (fst (fst e)) /\ wf_cmps (snd (fst e)) /\ wf_cmps (snd e).

Lemma entries_wf o kt vt m es : Forall2 (entry_rel o kt vt) m es ->
  Forall (fun p => (forall o', on_ok wf_cmps (marshal o' kt (fst p))) /\ on_ok wf_cmps (marshal o vt (snd p))) m ->
  Forall wf_entry es.
Proof.
  induction 1 as [|p e m es (Hs & Hkts & Hvts) _ IH]; intros Hm; [constructor|].
  inversion Hm as [|? ? [Hk Hv] Hm']; subst. constructor; [|exact (IH Hm')].
  repeat split.
  - exact (on_ok_eq _ _ _ (Hk default_opts) Hs).
  - exact (on_ok_eq _ _ _ (Hk o) Hkts).
  - exact (on_ok_eq _ _ _ Hv Hvts).
Qed.

Lemma map_entries_wf o t n m es : Forall (fun e => wfP (fst e) /\ wfP (snd e)) m ->
  wf_ty t = true -> has_type t (GMap n m) = true -> wf_dyn (GMap n m) = true ->
  Forall2 (entry_rel o (map_kt t) (map_vt t)) m es -> Forall wf_entry es.
Proof.
  intros HP Hw Ht Hd Hrel. apply (entries_wf _ _ _ _ _ Hrel).
  destruct (wf_ty_map t Hw) as [Hwk Hwv]. apply has_type_entries in Ht.
  cbn [wf_dyn] in Hd. rewrite forallb_forall in Hd. rewrite Forall_forall in *. intros p Hp.
  destruct (HP p Hp) as [Pk Pv]. destruct (Ht p Hp) as [Tk Tv].
  specialize (Hd p Hp). apply andb_true_iff in Hd. destruct Hd as [Dk Dv].
  split; [intros o'; exact (Pk o' _ Hwk Tk Dk) | exact (Pv o _ Hwv Tv Dv)].
Qed.

Lemma insert_entry_perm e l : Permutation (insert_entry e l) (e :: l).
Proof.
  induction l as [|x r IH]; cbn [insert_entry]; [apply Permutation_refl|].
  destruct (key_le e x); [apply Permutation_refl|].
  apply perm_trans with (x :: e :: r); [apply perm_skip; exact IH | apply perm_swap].
Qed.

Lemma sort_entries_cons e l : sort_entries (e :: l) = insert_entry e (sort_entries l).
Proof. reflexivity. Qed.

Lemma sort_entries_perm l : Permutation (sort_entries l) l.
Proof.
  induction l as [|e r IH]; [apply Permutation_refl|]. rewrite sort_entries_cons.
  apply perm_trans with (e :: sort_entries r); [apply insert_entry_perm | apply perm_skip; exact IH].
Qed.

Lemma map_stream_wf ents : Forall wf_entry ents -> wf_cmps (map_stream ents).
Proof.
  intros H. unfold map_stream. apply wf_cmps_bracket; try reflexivity.
  assert (Hs : Forall wf_entry (sort_entries ents)).
  { exact (Permutation_Forall (Permutation_sym (sort_entries_perm ents)) H). }
  induction Hs as [|e r He Hr IH]; [constructor|].
  cbn [flat_map]. destruct He as [_ [Hk Hv]].
  apply wf_cmps_app; [apply wf_cmps_app; assumption | exact IH].
Qed.

Lemma marshal_wfP v : wfP v.
Proof.
  induction v as [b|z|n|b|b|s|n s|n items IH|n es IH|vals IH| |x IH| |t' x IH| |items IH|enc] using gval_ind3;
    intros o t Hw Ht Hd; apply (wf_of_body o t _ Hw); cbn [marshal_body].
  - apply wf_cmps_one. reflexivity.
  - cbn [has_type] in Ht. destruct (underlying t) as [|w| | | | | | | | | | | | | | | |]; try discriminate Ht.
    apply wf_cmps_token; [destruct w; reflexivity | exact Ht | reflexivity].
  - cbn [has_type] in Ht. destruct (underlying t) as [| |w| | | | | | | | | | | | | | |]; try discriminate Ht;
      (apply wf_cmps_token; [try destruct w; reflexivity | exact Ht | reflexivity]).
  - cbn [has_type] in Ht. destruct (underlying t); try discriminate Ht.
    destruct (f32_is_nan b) eqn:En; [apply wf_cmps_one; reflexivity|].
    apply wf_cmps_token; [reflexivity | exact Ht | cbn [not_nan_payload]; rewrite En; reflexivity].
  - cbn [has_type] in Ht. destruct (underlying t); try discriminate Ht.
    destruct (f64_is_nan b) eqn:En; [apply wf_cmps_one; reflexivity|].
    apply wf_cmps_token; [reflexivity | exact Ht | cbn [not_nan_payload]; rewrite En; reflexivity].
  - cbn [has_type] in Ht. destruct (underlying t); try discriminate Ht.
    apply wf_cmps_token; [reflexivity | exact Ht | reflexivity].
  - cbn [has_type] in Ht. apply wf_cmps_token; [reflexivity | | reflexivity]. cbn [wf_val].
    destruct (underlying t); try discriminate Ht; apply andb_true_iff in Ht; destruct Ht as [Ht _].
    + exact Ht.
    + apply andb_true_iff in Ht. apply Ht.
  - apply wf_bracketed; try reflexivity.
    rewrite marshal_list_spec. apply concat_res_on_ok, Forall_map.
    apply has_type_elems in Ht. cbn [wf_dyn] in Hd. rewrite forallb_forall in Hd.
    rewrite Forall_forall in *. intros x Hx.
    exact (IH x Hx o _ (wf_ty_elem t Hw) (Ht x Hx) (Hd x Hx)).
  - destruct (marshal_entries o (map_kt t) (map_vt t) es) as [ents| |] eqn:He; try exact I.
    apply map_stream_wf. apply marshal_entries_ok in He.
    exact (map_entries_wf o t n es ents IH Hw Ht Hd (proj1 He)).
  - apply wf_bracketed; try reflexivity.
    rewrite marshal_fields_seq. apply concat_res_on_ok, Forall_map.
    apply (incl_Forall (incl_filter _ _)).
    apply has_type_fields in Ht. cbn [wf_dyn] in Hd. rewrite forallb_forall in Hd.
    pose proof (wf_ty_fields t Hw) as Hwf. rewrite forallb_forall in Hwf.
    rewrite Forall_forall in *. intros [fd x] Hp.
    specialize (Hwf fd (in_combine_l _ _ _ _ Hp)). apply andb_true_iff in Hwf. destruct Hwf as [Hname Hwt].
    pose proof (in_combine_r _ _ _ _ Hp) as Hx.
    apply on_ok_bind. generalize (IH x Hx o _ Hwt (Ht _ Hp) (Hd x Hx)). apply on_ok_impl.
    intros a Ha. constructor; [|exact Ha]. apply wf_cmp_intro; [reflexivity | exact Hname | reflexivity].
  - apply wf_cmps_one. reflexivity.
  - exact (IH o _ (wf_ty_ptr t Hw) (has_type_pointee t x Ht) Hd).
  - apply wf_cmps_one. reflexivity.
  - cbn [wf_dyn] in Hd. apply andb_true_iff in Hd. destruct Hd as [Hw' Hd].
    exact (IH o t' Hw' (has_type_dynamic t t' x Ht) Hd).
  - destruct (ignore_funcs o); [apply wf_cmps_one; reflexivity|].
    constructor; [reflexivity | apply wf_cmps_one; reflexivity].
  - destruct (ignore_funcs o); [apply wf_cmps_one; reflexivity|].
    apply wf_bracketed; try reflexivity.
    rewrite marshal_outs_spec. apply concat_res_on_ok, Forall_map.
    apply has_type_outs in Ht. cbn [wf_dyn] in Hd. rewrite forallb_forall in Hd.
    pose proof (wf_ty_outs t Hw) as Hwo. rewrite forallb_forall in Hwo.
    rewrite Forall_forall in *. intros [x xt] Hp.
    pose proof (in_combine_l _ _ _ _ Hp) as Hx.
    exact (IH x Hx o xt (Hwo xt (in_combine_r _ _ _ _ Hp)) (Ht _ Hp) (Hd x Hx)).
  - cbn [has_type] in Ht. destruct (underlying t); try discriminate Ht.
    apply andb_true_iff in Ht. apply wf_cmps_token; [reflexivity | apply Ht | reflexivity].
Qed.

Theorem marshal_tokens_wf o t v ts :
  wf_ty t = true -> has_type t v = true -> wf_dyn v = true -> marshal o t v = Ok ts ->
  Forall (fun tk => wf_cmp tk = true) ts.
Proof. intros Hw Ht Hd Hm. exact (on_ok_eq _ _ _ (marshal_wfP v o t Hw Ht Hd) Hm). Qed.

(* the dynamic-type hypothesis is needed: a dynamic type with an ill-formed name *)
Example marshal_tokens_wf_needs_wf_dyn :
  let v := GAny (Some (TNamed [300] true [] TBool, GBool true)) in
  wf_ty TAny = true /\ has_type TAny v = true /\ wf_dyn v = false /\
  marshal default_opts TAny v = Ok [T KTypeName (VStr [300]); T KBool (VBool true)] /\
  wf_cmp (T KTypeName (VStr [300])) = false.
Proof. vm_compute. repeat split. Qed.

Example marshal_tokens_wf_ex :
  let t := TStruct [([65], true, TSlice TF64); ([66], true, TAny)] in
  let v := GStruct [GList false [GF64 9221120237041090561; GF64 0]; GAny (Some (TInt W8, GInt (-128)))] in
  wf_ty t = true /\ has_type t v = true /\ wf_dyn v = true /\
  marshal default_opts t v =
    Ok [T KObject VNone; T KString (VStr [65]); T KArray VNone; T KNaN VNone; T KFloat64 (VF64 0);
        T KArrayEnd VNone; T KString (VStr [66]); T KInt8 (VI W8 (-128)); T KObjectEnd VNone].
Proof. vm_compute. repeat split. Qed.

Fixpoint nan_like (v : gval) : bool :=
  match v with
  | GF32 b => f32_is_nan b
  | GF64 b => f64_is_nan b
  | GPtr (Some x) => nan_like x
  | GAny (Some (_, x)) => nan_like x
  | _ => false
  end.

(* [ts] is not empty, and is a lone NaN token only if [Q]: both in one predicate, so that the one induction
   [marshal_nonempty_nan] gives [marshal_nonempty] and [bad_key_nan_like] *)
Definition nonempty_nan (Q : Prop) (ts : list token) : Prop :=
  exists tk rest, ts = tk :: rest /\ (rest = [] -> kind tk = KNaN -> Q).

Lemma nonempty_nan_prefix (Q : Prop) t b : nonempty_nan Q b -> nonempty_nan Q (reg_prefix t ++ b).
Proof.
  intros H. destruct t; try exact H. destruct reg; [|exact H].
  cbn [reg_prefix app]. exists (T KTypeName (VStr name)), b. split; [reflexivity|].
  intros E. destruct H as [tk [rest [Hb _]]]. rewrite Hb in E. discriminate.
Qed.

Lemma nonempty_nan_one (Q : Prop) k v : (k = KNaN -> Q) -> nonempty_nan Q [T k v].
Proof. intros H. exists (T k v), []. split; [reflexivity|]. intros _ Hk. apply H. exact Hk. Qed.

Lemma nonempty_nan_bracket (Q : Prop) k1 k2 body : nonempty_nan Q (T k1 VNone :: body ++ [T k2 VNone]).
Proof.
  exists (T k1 VNone), (body ++ [T k2 VNone]). split; [reflexivity|].
  intros E. symmetry in E. apply app_cons_not_nil in E. contradiction.
Qed.

Lemma marshal_nonempty_nan v : forall o t, on_ok (nonempty_nan (nan_like v = true)) (marshal o t v).
Proof.
  induction v as [b|z|n|b|b|s|n s|n items _|n es _|vals _| |x IH| |t' x IH| |items _|enc] using gval_ind3;
    intros o t; rewrite marshal_eq; apply on_ok_bind;
    apply (on_ok_impl _ _ _ (nonempty_nan_prefix _ t)); cbn [marshal_body].
  - apply nonempty_nan_one. discriminate.
  - destruct (underlying t) as [|w| | | | | | | | | | | | | | | |]; try exact I. apply nonempty_nan_one. destruct w; discriminate.
  - destruct (underlying t) as [| |w| | | | | | | | | | | | | | |]; try exact I; apply nonempty_nan_one.
    + destruct w; discriminate.
    + discriminate.
  - destruct (f32_is_nan b) eqn:En; apply nonempty_nan_one; [intros _; exact En | discriminate].
  - destruct (f64_is_nan b) eqn:En; apply nonempty_nan_one; [intros _; exact En | discriminate].
  - apply nonempty_nan_one. discriminate.
  - apply nonempty_nan_one. discriminate.
  - apply on_ok_bind, on_ok_all. intros body. apply nonempty_nan_bracket.
  - apply on_ok_bind, on_ok_all. intros ents. apply nonempty_nan_bracket.
  - apply on_ok_bind, on_ok_all. intros body. apply nonempty_nan_bracket.
  - apply nonempty_nan_one. discriminate.
  - exact (IH o _).
  - apply nonempty_nan_one. discriminate.
  - exact (IH o t').
  - destruct (ignore_funcs o); [apply nonempty_nan_one; discriminate | apply (nonempty_nan_bracket _ KTuple KTupleEnd [])].
  - destruct (ignore_funcs o); [apply nonempty_nan_one; discriminate|].
    apply on_ok_bind, on_ok_all. intros body. apply nonempty_nan_bracket.
  - apply nonempty_nan_one. discriminate.
Qed.

Theorem marshal_nonempty o t v ts : marshal o t v = Ok ts -> ts <> [].
Proof.
  intros Hm. destruct (on_ok_eq _ _ _ (marshal_nonempty_nan v o t) Hm) as [tk [rest [E _]]]. rewrite E. discriminate.
Qed.

Theorem bad_key_nan_like o t v ts : marshal o t v = Ok ts -> bad_map_key ts = true -> nan_like v = true.
Proof.
  intros Hm Hbad. destruct (on_ok_eq _ _ _ (marshal_nonempty_nan v o t) Hm) as [tk [rest [E H]]]. subst ts.
  destruct rest as [|tk2 rest]; [|discriminate]. cbn [bad_map_key] in Hbad.
  apply H; [reflexivity|]. apply N.eqb_eq. exact Hbad.
Qed.

Example marshal_nonempty_ex :
  marshal default_opts (TStruct []) (GStruct []) = Ok [T KObject VNone; T KObjectEnd VNone].
Proof. reflexivity. Qed.

Fixpoint no_bad_keys (v : gval) : bool :=
  match v with
  | GList _ items => forallb no_bad_keys items
  | GStruct vals => forallb no_bad_keys vals
  | GMap _ es => forallb (fun e => negb (nan_like (fst e)) && no_bad_keys (fst e) && no_bad_keys (snd e)) es
  | GPtr (Some x) => no_bad_keys x
  | GAny (Some (_, x)) => no_bad_keys x
  | GFunc (Some items) => forallb no_bad_keys items
  | _ => true
  end.

(* [Ok], or [Err EBadMapKey] and then [~ P]; no other error and never [OutOfFuel] *)
Definition okb {A} (P : Prop) (r : res A) : Prop :=
  match r with Ok _ => True | Err e => e = EBadMapKey /\ ~ P | OutOfFuel => False end.

Lemma okb_bind {A B} P (r : res A) (k : A -> res B) :
  okb P r -> (forall a, r = Ok a -> okb P (k a)) -> okb P (bind r k).
Proof. destruct r as [a|e|]; cbn [bind okb]; intros H Hk; [apply Hk; reflexivity | exact H | exact H]. Qed.

Lemma okb_map {A B} P (r : res A) (f : A -> B) : okb P r -> okb P (bind r (fun a => Ok (f a))).
Proof. intros H. apply okb_bind; [exact H | intros a _; exact I]. Qed.

Lemma okb_weak {A} (P Q : Prop) (r : res A) : (Q -> P) -> okb P r -> okb Q r.
Proof.
  intros HQP. destruct r as [a|e|]; cbn [okb]; intros H; [exact I | | exact H].
  destruct H as [He Hn]. split; [exact He | intros HQ; exact (Hn (HQP HQ))].
Qed.

Lemma okb_member {A} l x (r : res A) :
  In x l -> okb (no_bad_keys x = true) r -> okb (forallb no_bad_keys l = true) r.
Proof. intros Hx. apply okb_weak. intros Hn. exact (proj1 (forallb_forall _ _) Hn x Hx). Qed.

Lemma okb_concat_res P l : Forall (okb P) l -> okb P (concat_res l).
Proof.
  induction 1 as [|r l Hr _ IH]; [exact I|]. cbn [concat_res].
  apply okb_bind; [exact Hr|]. intros a _. apply okb_map. exact IH.
Qed.

Lemma marshal_entries_tot o kt vt (P : Prop) es :
  Forall (fun e => (forall o', okb P (marshal o' kt (fst e))) /\ okb P (marshal o vt (snd e)) /\
                   (P -> nan_like (fst e) = false)) es ->
  okb P (marshal_entries o kt vt es).
Proof.
  induction 1 as [|[k x] r (Hk & Hx & Hn) _ IH]; [exact I|]. cbn [fst snd] in Hk, Hx, Hn.
  rewrite marshal_entries_cons. apply okb_bind; [exact (Hk default_opts)|]. intros s Hs.
  destruct (bad_map_key s) eqn:Ebad.
  - split; [reflexivity|]. intros HP. rewrite (bad_key_nan_like _ _ _ _ Hs Ebad) in Hn. discriminate (Hn HP).
  - apply okb_bind; [exact IH|]. intros rest _.
    apply okb_bind; [exact (Hk o)|]. intros kts _. apply okb_map. exact Hx.
Qed.

Lemma marshal_totP v : forall o t, has_type t v = true -> okb (no_bad_keys v = true) (marshal o t v).
Proof.
  induction v as [b|z|n|b|b|s|n s|n items IH|n es IH|vals IH| |x IH| |t' x IH| |items IH|enc] using gval_ind3;
    intros o t Ht; rewrite marshal_eq; apply okb_map; cbn [marshal_body].
  - exact I.
  - cbn [has_type] in Ht. destruct (underlying t); try discriminate Ht. exact I.
  - cbn [has_type] in Ht. destruct (underlying t); try discriminate Ht; exact I.
  - destruct (f32_is_nan b); exact I.
  - destruct (f64_is_nan b); exact I.
  - exact I.
  - exact I.
  - apply okb_map. rewrite marshal_list_spec. apply okb_concat_res, Forall_map.
    apply has_type_elems in Ht. rewrite Forall_forall in *. intros x Hx.
    apply (okb_member items x _ Hx). exact (IH x Hx o _ (Ht x Hx)).
  - apply okb_map, marshal_entries_tot.
    apply has_type_entries in Ht. rewrite Forall_forall in *. intros [k x] He.
    destruct (IH _ He) as [Pk Px]. destruct (Ht _ He) as [Tk Tx]. cbn [fst snd] in *.
    assert (Hok : no_bad_keys (GMap n es) = true ->
                  nan_like k = false /\ no_bad_keys k = true /\ no_bad_keys x = true).
    { cbn [no_bad_keys]. intros Hn. pose proof (proj1 (forallb_forall _ _) Hn _ He) as H. cbn [fst snd] in H.
      apply andb_true_iff in H. destruct H as [H Hx]. apply andb_true_iff in H. destruct H as [Hnan Hk].
      apply negb_true_iff in Hnan. repeat split; assumption. }
    repeat split.
    + intros o'. apply (okb_weak (no_bad_keys k = true)); [intros H; apply Hok, H | exact (Pk o' _ Tk)].
    + apply (okb_weak (no_bad_keys x = true)); [intros H; apply Hok, H | exact (Px o _ Tx)].
    + intros H. apply Hok, H.
  - apply okb_map. rewrite marshal_fields_seq.
    apply okb_concat_res, Forall_map, (incl_Forall (incl_filter _ _)).
    apply has_type_fields in Ht. rewrite Forall_forall in *. intros [fd x] Hp.
    pose proof (in_combine_r _ _ _ _ Hp) as Hx.
    apply okb_map, (okb_member vals x _ Hx). exact (IH x Hx o _ (Ht _ Hp)).
  - exact I.
  - exact (IH o _ (has_type_pointee t x Ht)).
  - exact I.
  - exact (IH o t' (has_type_dynamic t t' x Ht)).
  - destruct (ignore_funcs o); exact I.
  - destruct (ignore_funcs o); [exact I|].
    apply okb_map. rewrite marshal_outs_spec. apply okb_concat_res, Forall_map.
    apply has_type_outs in Ht. rewrite Forall_forall in *. intros [x xt] Hp.
    pose proof (in_combine_l _ _ _ _ Hp) as Hx.
    apply (okb_member items x _ Hx). exact (IH x Hx o xt (Ht _ Hp)).
  - exact I.
Qed.

Theorem marshal_ok_or_bad_key o t v : has_type t v = true ->
  (exists ts, marshal o t v = Ok ts) \/ (marshal o t v = Err EBadMapKey /\ no_bad_keys v = false).
Proof.
  intros Ht. pose proof (marshal_totP v o t Ht) as H.
  destruct (marshal o t v) as [ts|e|]; cbn [okb] in H.
  - left. exists ts. reflexivity.
  - right. destruct H as [He Hn]. subst e. split; [reflexivity | apply not_true_is_false; exact Hn].
  - contradiction.
Qed.

Theorem marshal_total_strong o t v :
  has_type t v = true -> no_bad_keys v = true -> exists ts, marshal o t v = Ok ts.
Proof.
  intros Ht Hn. destruct (marshal_ok_or_bad_key o t v Ht) as [H|[_ H]]; [exact H|].
  rewrite Hn in H. discriminate.
Qed.

Theorem marshal_total o t v :
  wf_ty t = true -> has_type t v = true -> wf_dyn v = true -> no_bad_keys v = true ->
  exists ts, marshal o t v = Ok ts.
Proof. intros _ Ht _ Hn (* [wf_ty] and [wf_dyn] are not needed *). exact (marshal_total_strong o t v Ht Hn). Qed.

Example marshal_total_ex :
  let t := TMap TF64 (TSlice TAny) in
  let v := GMap false [(GF64 0, GList true []); (GF64 4607182418800017408, GList false [GAny None])] in
  wf_ty t = true /\ has_type t v = true /\ wf_dyn v = true /\ no_bad_keys v = true /\
  marshal default_opts t v =
    Ok [T KMap VNone; T KFloat64 (VF64 0); T KArray VNone; T KArrayEnd VNone;
        T KFloat64 (VF64 4607182418800017408); T KArray VNone; T KNil VNone; T KArrayEnd VNone;
        T KMapEnd VNone].
Proof. vm_compute. repeat split. Qed.

(* no_bad_keys is sufficient, not necessary: a NaN key of a REGISTERED float type marshals to
   two tokens (TypeName, NaN) and is accepted by the model *)
Example no_bad_keys_not_necessary :
  let kt := TNamed [75] true [] TF64 in
  let v := GMap false [(GF64 9221120237041090561, GBool true)] in
  has_type (TMap kt TBool) v = true /\ no_bad_keys v = false /\
  marshal default_opts (TMap kt TBool) v =
    Ok [T KMap VNone; T KTypeName (VStr [75]); T KNaN VNone; T KBool (VBool true); T KMapEnd VNone].
Proof. vm_compute. repeat split. Qed.

Definition ent_le (a b : entry) : Prop := lex (sk a) (sk b) <> Gt.
Definition ent_lt (a b : entry) : Prop := lex (sk a) (sk b) = Lt.
Definition ent_ne (a b : entry) : Prop := lex (sk a) (sk b) <> Eq.
Definition wf_sk (e : entry) : Prop := wf_cmps (sk e).

Lemma key_le_lex a b : wf_sk a -> wf_sk b -> if key_le a b then ent_le a b else ent_lt b a.
Proof.
  unfold key_le, ent_le, ent_lt, wf_sk, sk. intros Ha Hb. rewrite (cmp_is_lex _ _ Ha Hb).
  rewrite (lex_antisym (fst (fst a)) (fst (fst b))).
  destruct (lex (fst (fst a)) (fst (fst b))); [discriminate | discriminate | reflexivity].
Qed.

Lemma insert_entry_sorted e l : wf_sk e -> Forall wf_sk l ->
  StronglySorted ent_le l -> StronglySorted ent_le (insert_entry e l).
Proof.
  intros He. induction l as [|x r IH]; intros Hw Hs.
  - constructor; constructor.
  - apply StronglySorted_inv in Hs. destruct Hs as [Hsr Hxr].
    inversion Hw as [|? ? Hx Hr]; subst.
    cbn [insert_entry]. pose proof (key_le_lex e x He Hx) as Hc. destruct (key_le e x).
    + constructor; [constructor; assumption|]. constructor; [exact Hc|].
      rewrite Forall_forall in *. intros y Hy.
      exact (lex_trans _ _ _ He Hx (Hr y Hy) Hc (Hxr y Hy)).
    + constructor; [exact (IH Hr Hsr)|].
      apply (Permutation_Forall (Permutation_sym (insert_entry_perm e r))).
      constructor; [|exact Hxr]. unfold ent_le. unfold ent_lt in Hc. rewrite Hc. discriminate.
Qed.

Lemma sort_entries_sorted l : Forall wf_sk l -> StronglySorted ent_le (sort_entries l).
Proof.
  induction l as [|e r IH]; intros Hw; [constructor|].
  inversion Hw as [|? ? He Hr]; subst. rewrite sort_entries_cons.
  apply insert_entry_sorted; [exact He | | exact (IH Hr)].
  exact (Permutation_Forall (Permutation_sym (sort_entries_perm r)) Hr).
Qed.

Lemma FOP_perm {A} (R : A -> A -> Prop) : (forall a b, R a b -> R b a) ->
  forall l l', Permutation l l' -> ForallOrdPairs R l -> ForallOrdPairs R l'.
Proof.
  intros Hsym l l' Hp. induction Hp as [|x l l' Hp IH|x y l|l l' l'' Hp1 IH1 Hp2 IH2]; intros H.
  - exact H.
  - inversion H as [|? ? Hx Hl]; subst. constructor; [exact (Permutation_Forall Hp Hx) | exact (IH Hl)].
  - inversion H as [|? ? Hy Hxl]; subst. inversion Hxl as [|? ? Hx Hl]; subst.
    inversion Hy as [|? ? Hyx Hyl]; subst.
    constructor; [constructor; [apply Hsym; exact Hyx | exact Hx] | constructor; assumption].
  - exact (IH2 (IH1 H)).
Qed.

Lemma ent_ne_sym a b : ent_ne a b -> ent_ne b a.
Proof.
  unfold ent_ne. intros H E. apply H. rewrite (lex_antisym (sk b) (sk a)), E. reflexivity.
Qed.

Lemma sorted_strict l : StronglySorted ent_le l -> ForallOrdPairs ent_ne l -> StronglySorted ent_lt l.
Proof.
  induction l as [|a l IH]; intros Hs Hd; [constructor|].
  apply StronglySorted_inv in Hs. destruct Hs as [Hsl Hal].
  inversion Hd as [|? ? Hna Hdl]; subst.
  constructor; [exact (IH Hsl Hdl)|].
  rewrite Forall_forall in *. intros y Hy. specialize (Hal y Hy). specialize (Hna y Hy).
  unfold ent_le, ent_ne, ent_lt in *. destruct (lex (sk a) (sk y)); [contradiction | reflexivity | contradiction].
Qed.

Lemma ent_lt_asym a b : ent_lt a b -> ent_lt b a -> False.
Proof.
  unfold ent_lt. intros H1 H2. rewrite (lex_antisym (sk a) (sk b)), H1 in H2. discriminate.
Qed.

Lemma sort_entries_id l : Sorted (fun a b => key_le a b = true) l -> sort_entries l = l.
Proof.
  induction 1 as [|e r _ IH Hd]; [reflexivity|]. rewrite sort_entries_cons, IH.
  destruct Hd as [|x r' Hex]; [reflexivity|]. cbn [insert_entry]. rewrite Hex. reflexivity.
Qed.

Lemma sort_sorted l : Forall wf_sk l -> StronglySorted ent_lt l -> sort_entries l = l.
Proof.
  intros Hw Hs. apply sort_entries_id. apply StronglySorted_Sorted in Hs. revert Hw.
  induction Hs as [|e r _ IH Hd]; intros Hw; constructor; [exact (IH (Forall_inv_tail Hw))|].
  destruct Hd as [|x r' Hex]; constructor.
  pose proof (key_le_lex e x (Forall_inv Hw) (Forall_inv (Forall_inv_tail Hw))) as Hle.
  destruct (key_le e x); [reflexivity|destruct (ent_lt_asym _ _ Hex Hle)].
Qed.

Lemma sort_entries_strict l : Forall wf_sk l -> ForallOrdPairs ent_ne l ->
  StronglySorted ent_lt (sort_entries l).
Proof.
  intros Hw Hd. apply sorted_strict; [exact (sort_entries_sorted l Hw)|].
  exact (FOP_perm ent_ne ent_ne_sym l _ (Permutation_sym (sort_entries_perm l)) Hd).
Qed.

(* the key streams compared are those under the default options, the ones [marshal_entries] sorts by *)
Definition keys_distinct (kt : ty) (m : list (gval * gval)) : Prop :=
  ForallOrdPairs (fun p q => forall s1 s2,
                    marshal default_opts kt (fst p) = Ok s1 ->
                    marshal default_opts kt (fst q) = Ok s2 -> lex s1 s2 <> Eq) m.

Lemma FOP_Forall2 {A B} (R : A -> B -> Prop) (P : A -> A -> Prop) (Q : B -> B -> Prop) :
  (forall a b a' b', R a a' -> R b b' -> P a b -> Q a' b') ->
  forall l l', Forall2 R l l' -> ForallOrdPairs P l -> ForallOrdPairs Q l'.
Proof.
  intros HPQ l l' H2. induction H2 as [|a a' l l' Ha Hl IH]; intros H; [constructor|].
  inversion H as [|? ? Hal Hfl]; subst. constructor; [|exact (IH Hfl)].
  clear IH Hfl H. induction Hl as [|b b' l l' Hb Hl IH]; [constructor|].
  inversion Hal as [|? ? Hab Hal']; subst.
  constructor; [exact (HPQ a b a' b' Ha Hb Hab) | exact (IH Hal')].
Qed.

Lemma keys_distinct_entries o kt vt m es :
  Forall2 (entry_rel o kt vt) m es -> keys_distinct kt m -> ForallOrdPairs ent_ne es.
Proof.
  intros H2 Hd. apply (FOP_Forall2 _ _ ent_ne) with (2 := H2) (3 := Hd).
  intros p q e f [Hp _] [Hq _] H. unfold ent_ne, sk. exact (H _ _ Hp Hq).
Qed.

Lemma map_entries_wf_sk o t n m es :
  wf_ty t = true -> has_type t (GMap n m) = true -> wf_dyn (GMap n m) = true ->
  Forall2 (entry_rel o (map_kt t) (map_vt t)) m es -> Forall wf_sk es.
Proof.
  intros Hw Ht Hd Hrel. apply (Forall_impl wf_sk (fun e (H : wf_entry e) => proj1 H)).
  apply (map_entries_wf o t n m es); try assumption.
  apply Forall_forall. intros e _. split; apply marshal_wfP.
Qed.

Theorem map_sorted_gen o t isnil entries ts :
  wf_ty t = true -> has_type t (GMap isnil entries) = true -> wf_dyn (GMap isnil entries) = true ->
  marshal o t (GMap isnil entries) = Ok ts ->
  exists es0 es : list entry,
    Forall2 (entry_rel o (map_kt t) (map_vt t)) entries es0 /\ Permutation es0 es /\
    ts = reg_prefix t ++ T KMap VNone :: flat_map (fun e => snd (fst e) ++ snd e) es ++ [T KMapEnd VNone] /\
    StronglySorted ent_le es /\ (keys_distinct (map_kt t) entries -> StronglySorted ent_lt es).
Proof.
  intros Hw Ht Hd Hm.
  apply marshal_inv in Hm. destruct Hm as (body & Hb & ->). cbn [marshal_body] in Hb.
  apply bind_ok in Hb. destruct Hb as (es0 & He & Hb). injection Hb as <-.
  apply marshal_entries_ok in He. destruct He as [Hrel _].
  pose proof (map_entries_wf_sk o t isnil entries es0 Hw Ht Hd Hrel) as Hwf.
  exists es0, (sort_entries es0). repeat split.
  - exact Hrel.
  - apply Permutation_sym, sort_entries_perm.
  - exact (sort_entries_sorted es0 Hwf).
  - intros Hdist. exact (sort_entries_strict es0 Hwf (keys_distinct_entries _ _ _ _ _ Hrel Hdist)).
Qed.

Theorem map_sorted o kt vt isnil entries ts :
  wf_ty (TMap kt vt) = true -> has_type (TMap kt vt) (GMap isnil entries) = true ->
  wf_dyn (GMap isnil entries) = true ->
  marshal o (TMap kt vt) (GMap isnil entries) = Ok ts ->
  exists es0 es : list entry,
    Forall2 (entry_rel o kt vt) entries es0 /\ Permutation es0 es /\
    ts = T KMap VNone :: flat_map (fun e => snd (fst e) ++ snd e) es ++ [T KMapEnd VNone] /\
    StronglySorted (fun a b => lex (fst (fst a)) (fst (fst b)) <> Gt) es /\
    (keys_distinct kt entries -> StronglySorted (fun a b => lex (fst (fst a)) (fst (fst b)) = Lt) es).
Proof.
  intros Hw Ht Hd Hm. exact (map_sorted_gen o (TMap kt vt) isnil entries ts Hw Ht Hd Hm).
Qed.

Example map_sorted_ex :
  let m := [(GInt 7, GStr [112]); (GInt (-5), GStr [110]); (GInt 0, GStr [122])] in
  marshal default_opts (TMap (TInt WNat) TString) (GMap false m) =
    Ok [T KMap VNone;
        T KInt (VI WNat (-5)); T KString (VStr [110]);
        T KInt (VI WNat 0); T KString (VStr [122]);
        T KInt (VI WNat 7); T KString (VStr [112]);
        T KMapEnd VNone].
Proof. reflexivity. Qed.

Lemma sorted_perm_eq {A} (R : A -> A -> Prop) : (forall a b, R a b -> R b a -> False) ->
  forall l1 l2, StronglySorted R l1 -> StronglySorted R l2 -> Permutation l1 l2 -> l1 = l2.
Proof.
  intros Hasym. induction l1 as [|a l1 IH]; intros l2 H1 H2 Hp.
  - apply Permutation_nil in Hp. subst. reflexivity.
  - destruct l2 as [|b l2].
    + apply Permutation_sym, Permutation_nil in Hp. discriminate.
    + apply StronglySorted_inv in H1. destruct H1 as [Hs1 Ha].
      apply StronglySorted_inv in H2. destruct H2 as [Hs2 Hb].
      rewrite Forall_forall in Ha, Hb.
      assert (E : a = b).
      { assert (Hin : In a (b :: l2)) by (apply (Permutation_in a Hp); left; reflexivity).
        destruct Hin as [E|Hin]; [symmetry; exact E|].
        assert (Hin' : In b (a :: l1)) by (apply (Permutation_in b (Permutation_sym Hp)); left; reflexivity).
        destruct Hin' as [E|Hin']; [exact E|].
        exfalso. exact (Hasym a b (Ha b Hin') (Hb a Hin)). }
      subst b. f_equal. apply IH; [exact Hs1 | exact Hs2 |].
      exact (Permutation_cons_inv Hp).
Qed.

Lemma sort_entries_perm_eq es1 es2 : Forall wf_sk es1 -> ForallOrdPairs ent_ne es1 ->
  Permutation es1 es2 -> sort_entries es1 = sort_entries es2.
Proof.
  intros Hw Hd Hp. apply (sorted_perm_eq ent_lt ent_lt_asym).
  - exact (sort_entries_strict es1 Hw Hd).
  - exact (sort_entries_strict es2 (Permutation_Forall Hp Hw) (FOP_perm ent_ne ent_ne_sym es1 es2 Hp Hd)).
  - apply perm_trans with es1; [apply sort_entries_perm|].
    apply perm_trans with es2; [exact Hp | apply Permutation_sym, sort_entries_perm].
Qed.

Lemma marshal_entries_typed o kt vt m : Forall (typed_entry kt vt) m ->
  okb False (marshal_entries o kt vt m).
Proof.
  intros Ht. apply marshal_entries_tot. revert Ht. apply Forall_impl. intros e [Tk Tv].
  repeat split; try contradiction.
  - intros o'. exact (okb_weak _ False _ (False_ind _) (marshal_totP (fst e) o' kt Tk)).
  - exact (okb_weak _ False _ (False_ind _) (marshal_totP (snd e) o vt Tv)).
Qed.

Lemma marshal_entries_fails o kt vt m : Forall (typed_entry kt vt) m ->
  (forall es, marshal_entries o kt vt m <> Ok es) -> marshal_entries o kt vt m = Err EBadMapKey.
Proof.
  intros Ht Hno. pose proof (marshal_entries_typed o kt vt m Ht) as H.
  destruct (marshal_entries o kt vt m) as [es|e|]; cbn [okb] in H.
  - destruct (Hno es eq_refl).
  - destruct H as [-> _]. reflexivity.
  - contradiction.
Qed.

Lemma marshal_entries_perm o kt vt m1 m2 es1 : Permutation m1 m2 ->
  marshal_entries o kt vt m1 = Ok es1 ->
  exists es2, marshal_entries o kt vt m2 = Ok es2 /\ Permutation es1 es2.
Proof.
  intros Hp H. apply marshal_entries_ok in H. destruct H as [Hrel Hgood].
  destruct (Permutation_Forall2 Hp Hrel) as (es2 & Hpe & Hrel2).
  exists es2. split; [|exact Hpe].
  apply marshal_entries_ok. split; [exact Hrel2 | exact (Permutation_Forall Hpe Hgood)].
Qed.

Lemma res_ok_dec {A} (r : res A) : (exists a, r = Ok a) \/ (forall a, r <> Ok a).
Proof. destruct r as [a| |]; [left; exists a; reflexivity | right; discriminate | right; discriminate]. Qed.

Theorem marshal_map_perm_gen o t n1 n2 m1 m2 :
  Permutation m1 m2 ->
  wf_ty t = true -> has_type t (GMap n1 m1) = true -> wf_dyn (GMap n1 m1) = true ->
  keys_distinct (map_kt t) m1 ->
  marshal o t (GMap n1 m1) = marshal o t (GMap n2 m2).
Proof.
  intros Hp Hw Ht Hd Hdist. rewrite !marshal_eq. cbn [marshal_body]. f_equal.
  destruct (res_ok_dec (marshal_entries o (map_kt t) (map_vt t) m1)) as [[es1 E1]|N1].
  - destruct (marshal_entries_perm _ _ _ _ _ _ Hp E1) as (es2 & E2 & Hpe). rewrite E1, E2. cbn [bind].
    apply marshal_entries_ok in E1. destruct E1 as [Hrel _].
    unfold map_stream.
    rewrite (sort_entries_perm_eq es1 es2 (map_entries_wf_sk o t n1 m1 es1 Hw Ht Hd Hrel)
               (keys_distinct_entries _ _ _ _ _ Hrel Hdist) Hpe).
    reflexivity.
  - pose proof (has_type_entries t n1 m1 Ht) as Ht1.
    rewrite (marshal_entries_fails _ _ _ m1 Ht1 N1).
    rewrite (marshal_entries_fails _ _ _ m2 (Permutation_Forall Hp Ht1)); [reflexivity|].
    intros es2 E2. destruct (marshal_entries_perm _ _ _ _ _ _ (Permutation_sym Hp) E2) as (es1 & E1 & _).
    exact (N1 es1 E1).
Qed.

Theorem marshal_map_perm o kt vt n1 n2 m1 m2 :
  Permutation m1 m2 ->
  wf_ty (TMap kt vt) = true -> has_type (TMap kt vt) (GMap n1 m1) = true -> wf_dyn (GMap n1 m1) = true ->
  keys_distinct kt m1 ->
  marshal o (TMap kt vt) (GMap n1 m1) = marshal o (TMap kt vt) (GMap n2 m2).
Proof.
  intros Hp Hw Ht Hd Hdist.
  exact (marshal_map_perm_gen o (TMap kt vt) n1 n2 m1 m2 Hp Hw Ht Hd Hdist).
Qed.

Example marshal_map_perm_ex :
  let m1 := [(GInt 7, GStr [112]); (GInt (-5), GStr [110]); (GInt 0, GStr [122])] in
  let m2 := [(GInt 0, GStr [122]); (GInt 7, GStr [112]); (GInt (-5), GStr [110])] in
  Permutation m1 m2 /\
  wf_ty (TMap (TInt WNat) TString) = true /\ has_type (TMap (TInt WNat) TString) (GMap false m1) = true /\
  wf_dyn (GMap false m1) = true /\ keys_distinct (TInt WNat) m1 /\
  marshal default_opts (TMap (TInt WNat) TString) (GMap false m1) =
  marshal default_opts (TMap (TInt WNat) TString) (GMap false m2).
Proof.
  cbv zeta. repeat apply conj.
  2-4, 6: vm_compute; reflexivity.
  - apply perm_trans with [(GInt 7, GStr [112]); (GInt 0, GStr [122]); (GInt (-5), GStr [110])].
    + apply perm_skip. apply perm_swap.
    + apply perm_swap.
  - unfold keys_distinct. repeat constructor; cbn [fst]; intros s1 s2 H1 H2;
      injection H1 as <-; injection H2 as <-; discriminate.
Qed.

(* without distinct key streams the order does matter: +0 and -0 are different keys of a Go
   map with equal (Eq) key streams, and insertion sort keeps them in iteration order *)
Example marshal_map_perm_needs_distinct :
  let m1 := [(GF64 0, GBool true); (GF64 9223372036854775808, GBool false)] in
  let m2 := [(GF64 9223372036854775808, GBool false); (GF64 0, GBool true)] in
  Permutation m1 m2 /\ has_type (TMap TF64 TBool) (GMap false m1) = true /\
  marshal default_opts (TMap TF64 TBool) (GMap false m1) <>
  marshal default_opts (TMap TF64 TBool) (GMap false m2).
Proof. cbv zeta. split; [apply perm_swap|]. split; [reflexivity|]. vm_compute. discriminate. Qed.

Theorem bad_key_rejected o kt vt isnil k x rest :
  marshal default_opts kt k = Ok [T KNaN VNone] ->
  marshal o (TMap kt vt) (GMap isnil ((k, x) :: rest)) = Err EBadMapKey.
Proof.
  intros Hk. rewrite marshal_eq. cbn [marshal_body]. unfold map_kt, map_vt. cbn [underlying].
  rewrite marshal_entries_cons, Hk. reflexivity.
Qed.

Lemma bad_key_not_ok o kt vt k x m : In (k, x) m -> marshal default_opts kt k = Ok [T KNaN VNone] ->
  forall es, marshal_entries o kt vt m <> Ok es.
Proof.
  intros Hin Hk. induction m as [|[k' x'] r IH]; intros es E; [contradiction|].
  rewrite marshal_entries_cons in E. destruct Hin as [Heq|Hin].
  - injection Heq as -> ->. rewrite Hk in E. discriminate E.
  - apply bind_ok in E. destruct E as (s & _ & E). destruct (bad_map_key s); [discriminate|].
    apply bind_ok in E. destruct E as (rest & Hrest & _). exact (IH Hin rest Hrest).
Qed.

Theorem bad_key_rejected_anywhere o t kt vt isnil m k x :
  underlying t = TMap kt vt -> has_type t (GMap isnil m) = true -> In (k, x) m ->
  marshal default_opts kt k = Ok [T KNaN VNone] ->
  marshal o t (GMap isnil m) = Err EBadMapKey.
Proof.
  intros Hu Ht Hin Hk. apply has_type_entries in Ht.
  rewrite marshal_eq. cbn [marshal_body]. revert Ht. unfold map_kt, map_vt. rewrite Hu. intros Ht.
  rewrite (marshal_entries_fails o kt vt m Ht (bad_key_not_ok o kt vt k x m Hin Hk)). reflexivity.
Qed.

Example bad_key_rejected_ex :
  marshal default_opts (TMap TF64 TBool) (GMap false [(GF64 1, GBool true); (GF64 9221120237041090561, GBool true)])
  = Err EBadMapKey /\
  marshal default_opts (TMap (TPtr TF32) TBool) (GMap false [(GPtr (Some (GF32 2143289344)), GBool true)])
  = Err EBadMapKey.
Proof. split; vm_compute; reflexivity. Qed.

Print Assumptions marshal_tokens_wf.
Print Assumptions marshal_nonempty.
Print Assumptions marshal_total.
Print Assumptions marshal_ok_or_bad_key.
Print Assumptions marshal_ptr.
Print Assumptions marshal_any.
Print Assumptions marshal_named_reg.
Print Assumptions marshal_struct.
Print Assumptions marshal_func.
Print Assumptions map_sorted.
Print Assumptions marshal_map_perm.
Print Assumptions bad_key_rejected.
Print Assumptions bad_key_rejected_anywhere.
