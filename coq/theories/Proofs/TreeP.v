(* Proofs/TreeP.v — C12 (trees are faithful to their streams, hashes attached to nodes,
   lookup), C09 (FillHash and TreeFromStream WithHash each attach mhash to the root, the value
   the sink computes by HashP.sink_hash_is_merkle) and C10 at tree level.  In the order of the file:
   C12, Iter: iter_tree_of, iter_func_none;
   the node stack of TreeFromStream (settle), and its runs for any per-token labelling of the nodes (run_value);
   C12, TreeFromStream without options: build_tree_of, build_iter, stray_end, stray_end_first, more_than_one;
   C12 / C09, FillHash: fill_hash_full, fill_hash_tree_of, fill_hash_root;
   C12, FindByHash: find_sound, find_complete, find_absent, find_result_hash;
   C10, IterFunc replacing selected nodes by references: iter_func_subst;
   C12 / C09, TreeFromStream with the WithHash option: build_with_hash_tree;
   instances of the hypotheses (Examples). *)
From Coq Require Import List NArith ZArith Bool Lia ZifyBool ZifyNat ZifyN.
From SbModel Require Import Base.Bytes Base.Tokens Base.Values Model.Hash Model.Tree Spec.TreeSpec.
From SbModel Require Import Proofs.HashP.
Import ListNotations.

(* naming the nested fixpoints of the specification *)
Fixpoint subs_of (hl : token -> option bytes) (i : nat) (kc : N) (j : nat) (l : list value) : list tree :=
  match l with
  | [] => [Node j (T kc VNone) (Some i) (hl (T kc VNone)) []]
  | x :: r => tree_of hl j x :: subs_of hl i kc (j + vlen x) r
  end.

Lemma tree_of_comp hl i ko kc items :
  tree_of hl i (Comp ko kc items) = Node i (T ko VNone) None None (subs_of hl i kc (S i) items).
Proof.
  cbn [tree_of]. f_equal. generalize (S i) as j.
  induction items as [|x r IH]; intros j; cbn [subs_of]; [reflexivity|]. f_equal. apply IH.
Qed.

Lemma vlen_comp ko kc items : vlen (Comp ko kc items) = S (length (flat_map flatten items) + 1).
Proof. unfold vlen. cbn [flatten length]. rewrite app_length. reflexivity. Qed.

Lemma vlen_pos v : 0 < vlen v.
Proof. unfold vlen. destruct v; cbn [flatten length]; lia. Qed.

Theorem iter_tree_of hl i v : iter (tree_of hl i v) = flatten v.
Proof.
  revert i. induction v as [t|ko kc items IH|n v IH] using value_ind2; intros i.
  - reflexivity.
  - rewrite tree_of_comp. cbn [iter flatten]. f_equal. generalize (S i) as j.
    induction IH as [|x r Hx _ IHr]; intros j; cbn [subs_of flat_map]; [reflexivity|].
    rewrite Hx, IHr, app_assoc. reflexivity.
  - cbn [tree_of iter flatten flat_map]. rewrite IH, app_nil_r. reflexivity.
Qed.

Lemma iter_func_none_iter t : iter_func (fun _ => None) t = iter t.
Proof.
  induction t as [i tk p h subs IH] using tree_ind2. cbn [iter_func iter]. f_equal.
  induction IH as [|x r Hx _ IHr]; cbn [flat_map]; [reflexivity|]. rewrite Hx, IHr. reflexivity.
Qed.

Theorem iter_func_none hl i v : iter_func (fun _ => None) (tree_of hl i v) = flatten v.
Proof. rewrite iter_func_none_iter. apply iter_tree_of. Qed.

(* the node stack up to pending filled type-name frames *)
Definition settle (st : list oframe) : list oframe := pop_filled (length st) st.

Lemma pop_filled_top top p r : is_filled_name top = true ->
  exists n, pop (top :: p :: r) = add_sub n p :: r.
Proof.
  unfold is_filled_name, pop, close_frame. destruct (of_tok top); [eauto | discriminate].
Qed.

Lemma pop_filled_S f st :
  pop_filled (S f) st = match st with
                        | top :: _ :: _ => if is_filled_name top then pop_filled f (pop st) else st
                        | _ => st
                        end.
Proof. reflexivity. Qed.

Lemma pop_filled_fuel : forall f1 f2 st, length st <= f1 -> length st <= f2 ->
  pop_filled f1 st = pop_filled f2 st.
Proof.
  induction f1 as [|f1 IH]; intros f2 st H1 H2.
  - destruct st; [|cbn in H1; lia]. destruct f2; reflexivity.
  - destruct f2 as [|f2]. { destruct st; [reflexivity|cbn in H2; lia]. }
    destruct st as [|top [|p r]]; try reflexivity.
    rewrite !pop_filled_S. destruct (is_filled_name top) eqn:Hf; [|reflexivity].
    destruct (pop_filled_top top p r Hf) as [n Hn]. rewrite Hn.
    apply IH; cbn [length] in *; lia.
Qed.

Lemma settle_cons2 top p r :
  settle (top :: p :: r) = if is_filled_name top then settle (pop (top :: p :: r)) else top :: p :: r.
Proof.
  unfold settle at 1. cbn [length]. rewrite pop_filled_S. destruct (is_filled_name top) eqn:Hf; [|reflexivity].
  destruct (pop_filled_top top p r Hf) as [n Hn]. rewrite Hn.
  change (settle (add_sub n p :: r)) with (pop_filled (length (add_sub n p :: r)) (add_sub n p :: r)).
  apply pop_filled_fuel; cbn [length]; lia.
Qed.

Lemma settle_not_filled top r : is_filled_name top = false -> settle (top :: r) = top :: r.
Proof. intros Hf. destruct r as [|p r]; [reflexivity|]. rewrite settle_cons2, Hf. reflexivity. Qed.

Lemma settle_ind (P : list oframe -> list oframe -> Prop) :
  P [] [] -> (forall x, P [x] [x]) ->
  (forall top p r, is_filled_name top = false -> P (top :: p :: r) (top :: p :: r)) ->
  (forall top p r n, is_filled_name top = true -> pop (top :: p :: r) = add_sub n p :: r ->
     P (add_sub n p :: r) (settle (add_sub n p :: r)) -> P (top :: p :: r) (settle (add_sub n p :: r))) ->
  forall st, P st (settle st).
Proof.
  intros H0 H1 Hnf Hf st.
  remember (length st) as n eqn:Hn. revert st Hn.
  induction n as [n IH] using lt_wf_ind. intros st Hn.
  destruct st as [|top [|p r]]; [exact H0 | exact (H1 top) |].
  rewrite settle_cons2. destruct (is_filled_name top) eqn:Hft.
  - destruct (pop_filled_top top p r Hft) as [m Hm]. rewrite Hm.
    apply Hf; [assumption | assumption |].
    apply (IH (length (add_sub m p :: r))); [subst n; cbn [length]; lia | reflexivity].
  - apply Hnf. assumption.
Qed.

Lemma settle_idem st : settle (settle st) = settle st.
Proof.
  apply (settle_ind (fun _ s => settle s = s)); try reflexivity.
  - intros top p r Hf. apply settle_not_filled. assumption.
  - intros top p r n _ _ IH. exact IH.
Qed.

Lemma settle_nonempty st : st <> [] -> settle st <> [].
Proof.
  apply (settle_ind (fun st s => st <> [] -> s <> [])); try (intros; assumption).
  intros top p r n _ _ IH _. apply IH. discriminate.
Qed.

Lemma flush_settle st : flush (length (settle st)) (settle st) = flush (length st) st.
Proof.
  apply (settle_ind (fun st s => flush (length s) s = flush (length st) st)); try reflexivity.
  intros top p r n _ Hp IH. rewrite IH. cbn [length flush]. rewrite Hp. reflexivity.
Qed.

Lemma tree_finish_settle st h : tree_finish (settle st) h = tree_finish st h.
Proof. unfold tree_finish. rewrite flush_settle. reflexivity. Qed.

Lemma tree_step_eq st i t h : tree_step st i t h =
  if is_open_kind (kind t) || (kind t =? KTypeName)%N then inl (OF i (Some t) h [] :: settle st)
  else if is_end_kind (kind t) then
    match settle st with
    | [_] | [] => inr EUnexpEndTok
    | top :: rest => inl (pop (add_sub (Node i t (Some (of_idx top)) h []) top :: rest))
    end
  else match settle st with
       | top :: rest => inl (add_sub (Node i t None h []) top :: rest)
       | [] => inr EOther
       end.
Proof. reflexivity. Qed.

Lemma tree_step_settle st i t h : tree_step (settle st) i t h = tree_step st i t h.
Proof. rewrite !tree_step_eq, settle_idem. reflexivity. Qed.

Definition push_sub (n : tree) (st : list oframe) : list oframe :=
  match st with top :: rest => add_sub n top :: rest | [] => [] end.

Definition add_value (n : tree) (st : list oframe) : list oframe := settle (push_sub n (settle st)).

Lemma tree_step_open st i t h : is_open_kind (kind t) || (kind t =? KTypeName)%N = true ->
  tree_step st i t h = inl (OF i (Some t) h [] :: settle st).
Proof. intros Hk. rewrite tree_step_eq, Hk. reflexivity. Qed.

Lemma tree_step_leaf st i t h : is_leaf_token t = true -> st <> [] ->
  tree_step st i t h = inl (push_sub (Node i t None h []) (settle st)).
Proof.
  intros Hl Hst. destruct (leaf_token_inv t Hl) as [Ho He]. rewrite tree_step_eq, Ho, He.
  pose proof (settle_nonempty st Hst) as Hne. destruct (settle st); [congruence|reflexivity].
Qed.

Lemma tree_step_end_single st i t h x : is_end_kind (kind t) = true -> settle st = [x] ->
  tree_step st i t h = inr EUnexpEndTok.
Proof. intros He Hs. rewrite tree_step_eq, (proj2 (proj2 (end_kind_facts _ He))), He, Hs. reflexivity. Qed.

Section Build.
Variable lab : token -> option bytes.
Hypothesis lab_open : forall t, is_open_kind (kind t) || (kind t =? KTypeName)%N = true -> lab t = None.

Fixpoint build_l (st : list oframe) (i : nat) (ts : list token) : list oframe + eclass :=
  match ts with
  | [] => inl st
  | t :: r => match tree_step st i t (lab t) with
              | inl st' => build_l st' (S i) r
              | inr e => inr e
              end
  end.

Definition run_l (st : list oframe) (i : nat) (ts : list token) : list oframe + eclass :=
  match build_l st i ts with inl st' => inl (settle st') | inr e => inr e end.

Lemma run_l_cons st i t r :
  run_l st i (t :: r) = match tree_step st i t (lab t) with
                        | inl st' => run_l st' (S i) r
                        | inr e => inr e
                        end.
Proof. unfold run_l. cbn [build_l]. destruct (tree_step st i t (lab t)); reflexivity. Qed.

Lemma run_l_nil st i : run_l st i [] = inl (settle st).
Proof. reflexivity. Qed.

Lemma run_l_settle st i ts : run_l (settle st) i ts = run_l st i ts.
Proof.
  destruct ts as [|t r]; [rewrite !run_l_nil, settle_idem; reflexivity|].
  rewrite !run_l_cons, tree_step_settle. reflexivity.
Qed.

Lemma run_l_app a : forall st i b,
  run_l st i (a ++ b) = match run_l st i a with
                        | inl st' => run_l st' (i + length a) b
                        | inr e => inr e
                        end.
Proof.
  induction a as [|t a IH]; intros st i b.
  - cbn [app length]. rewrite run_l_nil, run_l_settle, Nat.add_0_r. reflexivity.
  - cbn [app length]. rewrite !run_l_cons. destruct (tree_step st i t (lab t)) as [st'|e]; [|reflexivity].
    rewrite IH. rewrite Nat.add_succ_comm. reflexivity.
Qed.

Definition consumes (v : value) : Prop :=
  forall i st, st <> [] -> run_l st i (flatten v) = inl (add_value (tree_of lab i v) st).

Lemma open_frame_not_filled i tok h acc : (kind tok =? KTypeName)%N = false ->
  is_filled_name (OF i (Some tok) h acc) = false.
Proof. intros Hk. unfold is_filled_name. cbn [of_tok]. rewrite Hk. reflexivity. Qed.

Lemma run_items kc items : is_end_kind kc = true -> Forall consumes items ->
  forall i tok h acc j top rest, (kind tok =? KTypeName)%N = false ->
  run_l (OF i (Some tok) h acc :: top :: rest) j (flat_map flatten items ++ [T kc VNone])
  = inl (settle (add_sub (Node i tok None h (rev acc ++ subs_of lab i kc j items)) top :: rest)).
Proof.
  intros Hkc Hall. induction Hall as [|x r Hx _ IH]; intros i tok h acc j top rest Hk.
  - cbn [flat_map app subs_of]. rewrite run_l_cons, tree_step_eq. cbn [kind].
    rewrite (proj2 (proj2 (end_kind_facts _ Hkc))), Hkc.
    rewrite (settle_not_filled _ _ (open_frame_not_filled i tok h acc Hk)).
    rewrite run_l_nil. reflexivity.
  - cbn [flat_map subs_of]. rewrite <- app_assoc, run_l_app.
    rewrite Hx by discriminate. unfold add_value.
    rewrite (settle_not_filled _ _ (open_frame_not_filled i tok h acc Hk)).
    cbn [push_sub]. unfold add_sub at 1. cbn [of_idx of_tok of_hash of_subs].
    rewrite (settle_not_filled _ _ (open_frame_not_filled i tok h _ Hk)).
    rewrite IH by assumption. cbn [rev]. rewrite <- app_assoc. reflexivity.
Qed.

Theorem run_value v : wf_value v = true -> consumes v.
Proof.
  induction v as [t|ko kc items IH|n v IH] using value_ind2; intros Hwf i st Hst.
  - apply wf_leaf_inv in Hwf. destruct Hwf as [Hl _].
    cbn [flatten tree_of]. rewrite run_l_cons, (tree_step_leaf _ _ _ _ Hl Hst), run_l_nil. reflexivity.
  - destruct (wf_comp_inv _ _ _ Hwf) as (Ho & Hc & Hi).
    pose proof (BytesP.Forall_mp _ _ _ IH Hi) as Hall.
    rewrite tree_of_comp. cbn [flatten].
    assert (Hopen : is_open_kind (kind (T ko VNone)) || (kind (T ko VNone) =? KTypeName)%N = true).
    { cbn [kind]. rewrite Ho. reflexivity. }
    rewrite run_l_cons, (tree_step_open _ _ _ _ Hopen), (lab_open _ Hopen).
    pose proof (settle_nonempty st Hst) as Hne. unfold add_value.
    destruct (settle st) as [|top rest]; [congruence|].
    rewrite (run_items kc items Hc Hall) by (cbn [kind]; apply (open_kind_facts ko Ho)).
    reflexivity.
  - apply wf_named_inv in Hwf. specialize (IH Hwf).
    cbn [flatten tree_of].
    assert (Hopen : is_open_kind (kind (T KTypeName (VStr n))) || (kind (T KTypeName (VStr n)) =? KTypeName)%N = true)
      by reflexivity.
    rewrite run_l_cons, (tree_step_open _ _ _ _ Hopen), (lab_open _ Hopen).
    rewrite IH by discriminate. unfold add_value.
    pose proof (settle_nonempty st Hst) as Hne.
    destruct (settle st) as [|top rest]; [congruence|].
    rewrite settle_not_filled by reflexivity.
    cbn [push_sub]. rewrite settle_cons2. reflexivity.
Qed.

End Build.

Definition no_lab (_ : token) : option bytes := None.

Lemma build_from_l ts : forall st i, build_from st i ts = build_l no_lab st i ts.
Proof.
  induction ts as [|t r IH]; intros st i; cbn [build_from build_l]; [reflexivity|].
  unfold no_lab at 1. destruct (tree_step st i t None); [apply IH|reflexivity].
Qed.

Lemma build_run ts :
  build ts = match run_l no_lab [root_frame] 0 ts with
             | inl st => tree_finish st None
             | inr e => inr e
             end.
Proof.
  unfold build, run_l. rewrite build_from_l.
  destruct (build_l no_lab [root_frame] 0 ts) as [st|e]; [|reflexivity].
  rewrite tree_finish_settle. reflexivity.
Qed.

Lemma t_hash_tree_of hl i v :
  t_hash (tree_of hl i v) = match v with Leaf t => hl t | _ => None end.
Proof. destruct v; reflexivity. Qed.

Lemma set_hash_same t : set_hash (t_hash t) t = t.
Proof. destruct t; reflexivity. Qed.

Lemma add_value_root n : add_value n [root_frame] = [OF 0 None None [n]].
Proof. reflexivity. Qed.

Lemma run_root lab v :
  (forall t, is_open_kind (kind t) || (kind t =? KTypeName)%N = true -> lab t = None) ->
  wf_value v = true -> run_l lab [root_frame] 0 (flatten v) = inl [OF 0 None None [tree_of lab 0 v]].
Proof.
  intros Hlab Hwf. rewrite (run_value lab Hlab v Hwf) by discriminate. reflexivity.
Qed.

Theorem build_tree_of v : wf_value v = true -> build (flatten v) = inl (Some (plain_tree 0 v)).
Proof.
  intros Hwf. rewrite build_run, (run_root no_lab v) by auto.
  unfold tree_finish. cbn [length flush of_subs rev app]. f_equal. f_equal.
  unfold plain_tree.
  change (fun _ : token => None (A:=bytes)) with no_lab.
  replace (None (A:=bytes)) with (t_hash (tree_of no_lab 0 v)) at 1; [apply set_hash_same|].
  rewrite t_hash_tree_of. destruct v; reflexivity.
Qed.

Example build_tree_of_nested_names :
  let v := Comp KArray KArrayEnd [Named [97%N] (Named [98%N] (Leaf (T KInt (VI WNat 1)))); Leaf (T KInt (VI WNat 2))] in
  wf_value v = true /\
  build (flatten v) =
    inl (Some (Node 0 (T KArray VNone) None None
                 [Node 1 (T KTypeName (VStr [97%N])) None None
                    [Node 2 (T KTypeName (VStr [98%N])) None None
                       [Node 3 (T KInt (VI WNat 1)) None None []]];
                  Node 4 (T KInt (VI WNat 2)) None None [];
                  Node 5 (T KArrayEnd VNone) (Some 0) None []])) /\
  build (flatten v) = inl (Some (plain_tree 0 v)).
Proof. intros v. rewrite (build_tree_of v eq_refl). repeat split. Qed.

Theorem build_iter v : wf_value v = true ->
  exists t, build (flatten v) = inl (Some t) /\ iter t = flatten v /\
            iter_func (fun _ => None) t = flatten v.
Proof.
  intros Hwf. exists (plain_tree 0 v). split; [apply build_tree_of; assumption|].
  split; [apply iter_tree_of | apply iter_func_none].
Qed.

Theorem stray_end v k rest : wf_value v = true -> is_end_kind k = true ->
  build (flatten v ++ T k VNone :: rest) = inr EUnexpEndTok.
Proof.
  intros Hwf Hk. rewrite build_run, run_l_app, (run_root no_lab v) by auto.
  rewrite run_l_cons, (tree_step_end_single _ _ _ _ (OF 0 None None [tree_of no_lab 0 v])); auto.
Qed.

Theorem stray_end_first k rest : is_end_kind k = true -> build (T k VNone :: rest) = inr EUnexpEndTok.
Proof.
  intros Hk. rewrite build_run, run_l_cons, (tree_step_end_single _ _ _ _ root_frame); auto.
Qed.

Theorem more_than_one v w : wf_value v = true -> wf_value w = true ->
  build (flatten v ++ flatten w) = inr EMoreThanOne.
Proof.
  intros Hv Hw. rewrite build_run, run_l_app, (run_root no_lab v) by auto.
  rewrite (run_value no_lab) by (auto || discriminate). reflexivity.
Qed.

Theorem build_empty : build [] = inl None.
Proof. reflexivity. Qed.

Fixpoint fill_subs (H : bytes -> bytes) (l : list tree) : (list tree * bytes) + eclass :=
  match l with
  | [] => inl ([], [])
  | s :: r => match fill_hash H s with
              | inr e => inr e
              | inl s' => match fill_subs H r with
                          | inr e => inr e
                          | inl (r', hs) =>
                              inl (s' :: r', match t_hash s' with Some x => x | None => [] end ++ hs)
                          end
              end
  end.

Lemma fill_hash_eq H i tok p h subs :
  fill_hash H (Node i tok p h subs) =
    if has_hash h then inl (Node i tok p h subs)
    else
      let k := kind tok in
      if (k =? KRef)%N then
        match val tok with VBytes x => inl (Node i tok p (Some x) subs) | _ => inr EPanic end
      else if is_hash_leaf_kind k then inl (Node i tok p (Some (H (k :: hash_payload (val tok)))) subs)
      else if is_open_kind k then
        match fill_subs H subs with
        | inr e => inr e
        | inl (subs', hs) => inl (Node i tok p (Some (H (k :: hs))) subs')
        end
      else if (k =? KTypeName)%N then
        match val tok, fill_subs H subs with
        | VStr n, inl (subs', hs) => inl (Node i tok p (Some (H (k :: n ++ hs))) subs')
        | _, inr e => inr e
        | _, _ => inr EPanic
        end
      else inr EPanic.
Proof.
  cbn [fill_hash].
  set (g := fix go (l : list tree) : (list tree * bytes) + eclass := _).
  assert (Hg : forall l, g l = fill_subs H l).
  { induction l as [|s r IH]; [reflexivity|].
    subst g. cbn [fill_subs]. cbv beta iota. fold fill_hash.
    destruct (fill_hash H s) as [s'|e]; [|reflexivity].
    rewrite IH. reflexivity. }
  rewrite !Hg. reflexivity.
Qed.

Section WithH.
Variable H : bytes -> bytes.

(* the tree of a value after FillHash: every node carries a hash *)
Fixpoint full_tree (i : nat) (v : value) : tree :=
  match v with
  | Leaf t => Node i t None (Some (leaf_hash H t)) []
  | Comp ko kc items =>
      Node i (T ko VNone) None (Some (mhash H v))
        ((fix subs (j : nat) (l : list value) : list tree :=
            match l with
            | [] => [Node j (T kc VNone) (Some i) (Some (H [kc])) []]
            | x :: r => full_tree j x :: subs (j + vlen x) r
            end) (S i) items)
  | Named n v' => Node i (T KTypeName (VStr n)) None (Some (mhash H v)) [full_tree (S i) v']
  end.

Fixpoint full_subs (i : nat) (kc : N) (j : nat) (l : list value) : list tree :=
  match l with
  | [] => [Node j (T kc VNone) (Some i) (Some (H [kc])) []]
  | x :: r => full_tree j x :: full_subs i kc (j + vlen x) r
  end.

Lemma full_tree_comp i ko kc items :
  full_tree i (Comp ko kc items) =
    Node i (T ko VNone) None (Some (mhash H (Comp ko kc items))) (full_subs i kc (S i) items).
Proof.
  cbn [full_tree]. f_equal. generalize (S i) as j.
  induction items as [|x r IH]; intros j; cbn [full_subs]; [reflexivity|]. f_equal. apply IH.
Qed.

Lemma full_tree_shape i v :
  exists tok p subs, full_tree i v = Node i tok p (Some (mhash H v)) subs.
Proof. destruct v; [cbn [full_tree mhash] | rewrite full_tree_comp | cbn [full_tree]]; eauto. Qed.

Lemma t_hash_full i v : t_hash (full_tree i v) = Some (mhash H v).
Proof. destruct (full_tree_shape i v) as (tok & p & subs & ->). reflexivity. Qed.

Lemma t_idx_full i v : t_idx (full_tree i v) = i.
Proof. destruct (full_tree_shape i v) as (tok & p & subs & ->). reflexivity. Qed.

Lemma iter_full_tree v : forall i, iter (full_tree i v) = flatten v.
Proof.
  induction v as [t|ko kc items IH|n v IH] using value_ind2; intros i.
  - reflexivity.
  - rewrite full_tree_comp. cbn [iter flatten]. f_equal. generalize (S i) as j.
    induction IH as [|x r Hx _ IHr]; intros j; cbn [full_subs flat_map]; [reflexivity|].
    rewrite Hx, IHr, app_assoc. reflexivity.
  - cbn [full_tree iter flatten flat_map]. rewrite IH, app_nil_r. reflexivity.
Qed.

Lemma fill_end_marker j kc p : is_end_kind kc = true ->
  fill_hash H (Node j (T kc VNone) p None []) = inl (Node j (T kc VNone) p (Some (H [kc])) []).
Proof.
  intros Hk. rewrite fill_hash_eq. cbn [has_hash kind val].
  destruct (end_kind_facts kc Hk) as (-> & -> & _). reflexivity.
Qed.

Lemma fill_hash_full v : wf_value v = true ->
  forall i, fill_hash H (plain_tree i v) = inl (full_tree i v).
Proof.
  unfold plain_tree. change (fun _ : token => None (A:=bytes)) with no_lab.
  induction v as [t|ko kc items IH|n v IH] using value_ind2; intros Hwf i.
  - apply wf_leaf_inv in Hwf. destruct Hwf as [Hl Hw].
    cbn [tree_of full_tree]. unfold no_lab. rewrite fill_hash_eq. cbn [has_hash]. cbv zeta.
    unfold leaf_hash.
    destruct (wf_leaf_kind t Hl Hw) as [[Hr (x & Hx)] | [Hr Hk]]; rewrite Hr.
    + rewrite Hx. reflexivity.
    + rewrite Hk. reflexivity.
  - destruct (wf_comp_inv _ _ _ Hwf) as (Ho & Hc & Hi).
    rewrite tree_of_comp, full_tree_comp, fill_hash_eq. cbn [has_hash kind]. cbv zeta.
    assert (Hsubs : forall j, fill_subs H (subs_of no_lab i kc j items)
                              = inl (full_subs i kc j items, flat_map (mhash H) items ++ H [kc])).
    { pose proof (BytesP.Forall_mp _ _ _ IH Hi) as Hall. clear Hwf IH Hi.
      induction Hall as [|x r Hx _ IHr]; intros j; cbn [subs_of full_subs fill_subs flat_map].
      - unfold no_lab at 1. rewrite (fill_end_marker _ _ _ Hc). cbn [t_hash app].
        rewrite app_nil_r. reflexivity.
      - rewrite Hx, IHr, t_hash_full, app_assoc. reflexivity. }
    destruct (open_kind_facts ko Ho) as (Hr & Hk & _). rewrite Hr, Hk, Ho, Hsubs. reflexivity.
  - apply wf_named_inv in Hwf.
    cbn [tree_of full_tree]. rewrite fill_hash_eq. cbn [has_hash kind val fill_subs]. cbv zeta.
    rewrite (IH Hwf), t_hash_full, app_nil_r. reflexivity.
Qed.

Theorem fill_hash_tree_of i v : wf_value v = true ->
  exists t', fill_hash H (plain_tree i v) = inl t' /\ t_hash t' = Some (mhash H v) /\ iter t' = flatten v.
Proof.
  intros Hwf. exists (full_tree i v).
  split; [apply fill_hash_full; assumption|]. split; [apply t_hash_full | apply iter_full_tree].
Qed.

Theorem fill_hash_root v : wf_value v = true ->
  exists t t', build (flatten v) = inl (Some t) /\ fill_hash H t = inl t' /\ t_hash t' = Some (mhash H v).
Proof.
  intros Hwf. exists (plain_tree 0 v), (full_tree 0 v).
  split; [apply build_tree_of; assumption|]. split; [apply fill_hash_full; assumption | apply t_hash_full].
Qed.

End WithH.

Definition hit (hh : option bytes) (h : bytes) : bool := bytes_eq_opt hh h && has_hash hh.

Lemma hit_some y h : hit (Some y) h = true <-> y = h /\ h <> [].
Proof.
  unfold hit. cbn [bytes_eq_opt has_hash]. rewrite andb_true_iff, BytesP.bytes_eqb_eq. split.
  - intros [-> Hh]. split; [reflexivity|]. destruct h; [discriminate Hh | discriminate].
  - intros [-> Hne]. split; [reflexivity|]. destruct h; [congruence | reflexivity].
Qed.

Fixpoint find_nodes (h : bytes) (l : list tree) : option tree :=
  match l with
  | [] => None
  | s :: r => match find_node h s with Some x => Some x | None => find_nodes h r end
  end.

Lemma find_node_eq h i tok p hh subs :
  find_node h (Node i tok p hh subs) =
    if hit hh h then Some (Node i tok p hh subs) else find_nodes h subs.
Proof.
  cbn [find_node t_hash]. unfold hit. destruct (bytes_eq_opt hh h && has_hash hh); [reflexivity|].
  induction subs as [|s r IH]; [reflexivity|]. cbn [find_nodes]. rewrite <- IH. reflexivity.
Qed.

Lemma subvalue_wf s v : subvalue s v -> wf_value v = true -> wf_value s = true.
Proof.
  induction 1 as [v | s ko kc items x Hin _ IH | s n v _ IH]; intros Hwf.
  - assumption.
  - apply IH. destruct (wf_comp_inv _ _ _ Hwf) as (_ & _ & Hi).
    rewrite Forall_forall in Hi. apply Hi. assumption.
  - apply IH. apply wf_named_inv in Hwf. assumption.
Qed.

Section Find.
Variable H : bytes -> bytes.

(* what a node found in the filled tree of v can be *)
Definition good (v : value) (h : bytes) (n : tree) : Prop :=
  (exists s j, subvalue s v /\ mhash H s = h /\ n = full_tree H j s) \/
  (exists kc j p, is_end_kind kc = true /\ h = H [kc] /\ n = Node j (T kc VNone) p (Some (H [kc])) []).

Lemma good_mono v w h n : (forall s, subvalue s v -> subvalue s w) -> good v h n -> good w h n.
Proof.
  intros Hsub [(s & j & Hs & Hh & Hn) | Hend]; [left | right; exact Hend].
  exists s, j. auto.
Qed.

Definition finds_good (h : bytes) (v : value) : Prop :=
  forall i n, find_node h (full_tree H i v) = Some n -> h <> [] /\ good v h n.

Lemma find_nodes_full_subs h i kc items : is_end_kind kc = true -> Forall (finds_good h) items ->
  forall j n, find_nodes h (full_subs H i kc j items) = Some n ->
    h <> [] /\ ((exists x, In x items /\ good x h n) \/
                (exists j', h = H [kc] /\ n = Node j' (T kc VNone) (Some i) (Some (H [kc])) [])).
Proof.
  intros Hkc Hall. induction Hall as [|x r Hx _ IH]; intros j n; cbn [full_subs find_nodes].
  - rewrite find_node_eq. destruct (hit (Some (H [kc])) h) eqn:Hh; cbn [find_nodes]; [|discriminate].
    intros E. inversion E; subst n. apply hit_some in Hh. destruct Hh as [Hh Hne].
    split; [assumption|]. right. exists j. auto.
  - destruct (find_node h (full_tree H j x)) as [m|] eqn:E.
    + intros E'. inversion E'; subst m. destruct (Hx j n E) as [Hne Hg].
      split; [assumption|]. left. exists x. split; [left; reflexivity | assumption].
    + intros E'. destruct (IH _ _ E') as [Hne [(y & Hy & Hg) | Hend]]; (split; [assumption|]).
      * left. exists y. split; [right; assumption | assumption].
      * right. exact Hend.
Qed.

Lemma find_node_root h i v : find_node h (full_tree H i v) =
  if hit (Some (mhash H v)) h then Some (full_tree H i v) else find_nodes h (t_subs (full_tree H i v)).
Proof. destruct (full_tree_shape H i v) as (tok & p & subs & ->). apply find_node_eq. Qed.

Lemma find_node_good h v : wf_value v = true -> finds_good h v.
Proof.
  induction v as [t|ko kc items IH|n v IH] using value_ind2; intros Hwf i m; rewrite find_node_root;
    destruct (hit (Some (mhash H _)) h) eqn:Hh;
    try (intros [= <-]; apply hit_some in Hh; destruct Hh as [Hh Hne]; split; [assumption|];
         left; eexists _, i; split; [constructor | auto]).
  - discriminate.
  - destruct (wf_comp_inv _ _ _ Hwf) as (Ho & Hc & Hi). rewrite full_tree_comp. cbn [t_subs]. intros E.
    destruct (find_nodes_full_subs h i kc items Hc (BytesP.Forall_mp _ _ _ IH Hi) _ _ E)
      as [Hne [(x & Hx & Hg) | (j' & Hj & Hn)]]; (split; [assumption|]).
    + apply (good_mono x); [|assumption]. intros s Hs. apply (sv_item s ko kc items x); assumption.
    + right. exists kc, j', (Some i). auto.
  - apply wf_named_inv in Hwf. cbn [full_tree t_subs find_nodes].
    destruct (find_node h (full_tree H (S i) v)) as [m'|] eqn:E; [|discriminate].
    intros [= <-]. destruct (IH Hwf _ _ E) as [Hne Hg].
    split; [assumption|]. apply (good_mono v); [|assumption]. intros s Hs. apply sv_named. assumption.
Qed.

Lemma find_node_complete s v : subvalue s v -> mhash H s <> [] ->
  forall i, exists n, find_node (mhash H s) (full_tree H i v) = Some n.
Proof.
  induction 1 as [v | s ko kc items x Hin _ IH | s n v _ IH]; intros Hne i.
  - rewrite find_node_root, (proj2 (hit_some _ _) (conj eq_refl Hne)). eauto.
  - rewrite full_tree_comp, find_node_eq.
    destruct (hit _ _); [eauto|]. specialize (IH Hne). generalize (S i) as j.
    induction items as [|y r IHr]; [destruct Hin|]. intros j. cbn [full_subs find_nodes].
    destruct Hin as [-> | Hin].
    + destruct (IH j) as [m ->]. eauto.
    + destruct (find_node (mhash H s) (full_tree H j y)); [eauto | apply IHr; assumption].
  - cbn [full_tree]. rewrite find_node_eq.
    destruct (hit _ _); [eauto|]. cbn [find_nodes]. destruct (IH Hne (S i)) as [m ->]. eauto.
Qed.

Lemma find_by_hash_eq v h : wf_value v = true ->
  find_by_hash H (flatten v) h = match find_node h (full_tree H 0 v) with
                                 | Some n => inl (iter n)
                                 | None => inr ENotFound
                                 end.
Proof.
  intros Hwf. unfold find_by_hash. rewrite (build_tree_of v Hwf), (fill_hash_full H v Hwf). reflexivity.
Qed.

Theorem find_sound v h ts : wf_value v = true -> find_by_hash H (flatten v) h = inl ts ->
  h <> [] /\ ((exists s, subvalue s v /\ mhash H s = h /\ ts = flatten s) \/
              (exists kc, is_end_kind kc = true /\ h = H [kc] /\ ts = [T kc VNone])).
Proof.
  intros Hwf. rewrite (find_by_hash_eq v h Hwf).
  destruct (find_node h (full_tree H 0 v)) as [n|] eqn:E; [|discriminate].
  intros E'. inversion E'; subst ts.
  destruct (find_node_good h v Hwf _ _ E) as [Hne [(s & j & Hs & Hh & ->) | (kc & j & p & Hk & Hh & ->)]];
    (split; [assumption|]).
  - left. exists s. rewrite iter_full_tree. auto.
  - right. exists kc. auto.
Qed.

Theorem find_complete v s : wf_value v = true -> subvalue s v -> mhash H s <> [] ->
  exists ts, find_by_hash H (flatten v) (mhash H s) = inl ts.
Proof.
  intros Hwf Hs Hne. rewrite (find_by_hash_eq v _ Hwf).
  destruct (find_node_complete s v Hs Hne 0) as [n ->]. eauto.
Qed.

Theorem find_absent v h : wf_value v = true ->
  (forall s, subvalue s v -> mhash H s <> h) -> (forall kc, is_end_kind kc = true -> H [kc] <> h) ->
  find_by_hash H (flatten v) h = inr ENotFound.
Proof.
  intros Hwf Hsub Hend. rewrite (find_by_hash_eq v h Hwf).
  destruct (find_node h (full_tree H 0 v)) as [n|] eqn:E; [|reflexivity]. exfalso.
  destruct (find_node_good h v Hwf _ _ E) as [_ [(s & j & Hs & Hh & _) | (kc & j & p & Hk & Hh & _)]].
  - exact (Hsub s Hs Hh).
  - exact (Hend kc Hk (eq_sym Hh)).
Qed.

Lemma hash_result_end_marker kc : is_end_kind kc = true -> hash_result H [T kc VNone] = inl (H [kc]).
Proof.
  intros Hk. unfold hash_result, hash_stream. cbn [hrun hstep]. rewrite (hf_end H [] 0 kc Hk). reflexivity.
Qed.

Theorem find_result_hash v h ts : wf_value v = true -> find_by_hash H (flatten v) h = inl ts ->
  hash_result H ts = inl h.
Proof.
  intros Hwf E. destruct (find_sound v h ts Hwf E) as [_ [(s & Hs & Hh & ->) | (kc & Hk & -> & ->)]].
  - rewrite (sink_hash_is_merkle H s (subvalue_wf s v Hs Hwf)), Hh. reflexivity.
  - apply hash_result_end_marker. assumption.
Qed.

End Find.

Definition in_nat (i : nat) (l : list nat) : bool := existsb (Nat.eqb i) l.
Definition ref_fn (sel : list nat) (t : tree) : option token :=
  if in_nat (t_idx t) sel
  then match t_hash t with Some h => Some (T KRef (VBytes h)) | None => None end
  else None.

Lemma ref_fn_eq sel i tok p h subs :
  ref_fn sel (Node i tok p (Some h) subs) = if existsb (Nat.eqb i) sel then Some (T KRef (VBytes h)) else None.
Proof. reflexivity. Qed.

Lemma existsb_eqb_false i l : ~ In i l -> existsb (Nat.eqb i) l = false.
Proof.
  intros Hn. destruct (existsb (Nat.eqb i) l) eqn:E; [|reflexivity].
  apply existsb_exists in E. destruct E as (x & Hx & Hix). apply Nat.eqb_eq in Hix. subst x. contradiction.
Qed.

Lemma iter_func_eq fn i tok p h subs :
  iter_func fn (Node i tok p h subs) =
    match fn (Node i tok p h subs) with
    | Some r => [r]
    | None => tok :: flat_map (iter_func fn) subs
    end.
Proof. reflexivity. Qed.

Section Subst.
Variable H : bytes -> bytes.

Fixpoint end_items (j : nat) (l : list value) : list nat :=
  match l with
  | [] => [j]
  | x :: r => end_indices j x ++ end_items (j + vlen x) r
  end.

Lemma end_indices_comp i ko kc items : end_indices i (Comp ko kc items) = end_items (S i) items.
Proof.
  cbn [end_indices]. generalize (S i) as j.
  induction items as [|x r IH]; intros j; cbn [end_items]; [reflexivity|]. rewrite IH. reflexivity.
Qed.

Theorem iter_func_subst sel i v : (forall j, In j sel -> ~ In j (end_indices i v)) ->
  iter_func (ref_fn sel) (full_tree H i v) = flatten (subst_at H sel i v).
Proof.
  revert i. induction v as [t|ko kc items IH|n v IH] using value_ind2; intros i Hsel.
  - cbn [full_tree subst_at]. rewrite iter_func_eq, ref_fn_eq.
    destruct (existsb (Nat.eqb i) sel); reflexivity.
  - rewrite full_tree_comp, subst_at_comp, iter_func_eq, ref_fn_eq.
    destruct (existsb (Nat.eqb i) sel); [reflexivity|]. cbn [flatten]. f_equal.
    rewrite end_indices_comp in Hsel. revert Hsel. generalize (S i) as j.
    induction IH as [|x r Hx _ IHr]; intros j Hsel; cbn [full_subs subst_items flat_map].
    + rewrite iter_func_eq, ref_fn_eq, existsb_eqb_false; [reflexivity|]. intros Hj. apply (Hsel j Hj). left. reflexivity.
    + rewrite Hx, IHr, app_assoc; [reflexivity | |].
      * intros j' Hj' Hin. apply (Hsel j' Hj'). cbn [end_items]. apply in_or_app. right. assumption.
      * intros j' Hj' Hin. apply (Hsel j' Hj'). cbn [end_items]. apply in_or_app. left. assumption.
  - cbn [full_tree subst_at]. rewrite iter_func_eq, ref_fn_eq.
    destruct (existsb (Nat.eqb i) sel); [reflexivity|].
    cbn [flatten flat_map]. rewrite IH, app_nil_r; [reflexivity|].
    intros j Hj. apply (Hsel j Hj).
Qed.

End Subst.

Section HashTree.
Variable H : bytes -> bytes.

(* the hash TreeFromStream sees in its callback when token t arrives (while the sink is live) *)
Definition tok_label (t : token) : option bytes :=
  if (kind t =? KRef)%N then match val t with VBytes h => norm_hash h | _ => None end
  else if is_hash_leaf_kind (kind t) then norm_hash (H (kind t :: hash_payload (val t)))
  else None.

Lemma tok_label_open t : is_open_kind (kind t) || (kind t =? KTypeName)%N = true -> tok_label t = None.
Proof.
  intros Hk. unfold tok_label. apply orb_true_iff in Hk. destruct Hk as [Hk|Hk].
  - destruct (open_kind_facts _ Hk) as (-> & -> & _). reflexivity.
  - apply N.eqb_eq in Hk. rewrite Hk. reflexivity.
Qed.

Lemma tok_label_leaf t : is_leaf_token t = true -> wf_token t = true ->
  tok_label t = norm_hash (leaf_hash H t).
Proof.
  intros Hl Hw. unfold tok_label, leaf_hash.
  destruct (wf_leaf_kind t Hl Hw) as [[Hr (x & Hx)] | [Hr Hk]]; rewrite Hr.
  - rewrite Hx. reflexivity.
  - rewrite Hk. reflexivity.
Qed.

Lemma tok_label_end kc : is_end_kind kc = true ->
  tok_label (T kc VNone) = norm_hash (leaf_hash H (T kc VNone)).
Proof.
  intros Hk. unfold tok_label, leaf_hash. cbn [kind val].
  destruct (end_kind_facts kc Hk) as (-> & -> & _). reflexivity.
Qed.

Lemma tree_of_labels v : wf_value v = true ->
  forall i, tree_of tok_label i v = tree_of (fun t => norm_hash (leaf_hash H t)) i v.
Proof.
  induction v as [t|ko kc items IH|n v IH] using value_ind2; intros Hwf i.
  - apply wf_leaf_inv in Hwf. destruct Hwf as [Hl Hw]. cbn [tree_of]. rewrite tok_label_leaf; auto.
  - destruct (wf_comp_inv _ _ _ Hwf) as (Ho & Hc & Hi). rewrite !tree_of_comp. f_equal.
    generalize (S i) as j. pose proof (BytesP.Forall_mp _ _ _ IH Hi) as Hall. clear Hwf IH Hi.
    induction Hall as [|x r Hx _ IHr]; intros j; cbn [subs_of].
    + rewrite tok_label_end by assumption. reflexivity.
    + rewrite Hx, IHr. reflexivity.
  - apply wf_named_inv in Hwf. cbn [tree_of]. rewrite (IH Hwf). reflexivity.
Qed.

Definition ev_lab (e : event) : option bytes :=
  match fst e with Some ((_ :: _) as h) => Some h | _ => None end.

Lemma last_hash_snoc cur evs e : last_hash cur (evs ++ [e]) = ev_lab e.
Proof. unfold last_hash. rewrite fold_left_app. reflexivity. Qed.

Lemma ev_lab_some h i : ev_lab (Some h, i) = norm_hash h.
Proof. destruct h; reflexivity. Qed.

Lemma hf_lab ks i t cur evs : herr (fst (hf H ks i t)) = false ->
  last_hash cur (evs ++ snd (hf H ks i t)) = tok_label t.
Proof.
  unfold hf, tok_label. destruct (kind t =? KRef)%N.
  { destruct (val t); cbn [fst snd herr]; try discriminate.
    intros _. rewrite last_hash_snoc. apply ev_lab_some. }
  destruct (is_hash_leaf_kind (kind t)).
  { cbn [fst snd]. intros _.
    change (evs ++ [(None, i); (Some (H (kind t :: hash_payload (val t))), i)])
      with (evs ++ [(None (A:=bytes), i)] ++ [(Some (H (kind t :: hash_payload (val t))), i)]).
    rewrite app_assoc, last_hash_snoc. apply ev_lab_some. }
  destruct (is_open_kind (kind t)).
  { cbn [fst snd]. intros _. rewrite last_hash_snoc. reflexivity. }
  destruct (kind t =? KTypeName)%N; [|cbn [fst herr]; discriminate].
  destruct (val t); cbn [fst snd herr]; try discriminate.
  intros _. rewrite last_hash_snoc. reflexivity.
Qed.

(* along a run of the tee'd sink in which HashFunc takes every token, every node is created
   with the label of its token: the builder runs as if it were given the labels *)
Lemma build_h_from_follows hs i ts hs' : follows H hs i ts hs' -> forall st cur,
  build_h_from H st hs cur i ts =
    match build_l tok_label st i ts with
    | inl st' => inl (st', hs', fold_left (fun _ t => tok_label t) ts cur)
    | inr e => inr e
    end.
Proof.
  induction 1 as [s i|s i t r ks s1 ev s' [p Hp] Hf He _ IH]; intros st cur; [reflexivity|].
  cbn [build_h_from build_l fold_left]. rewrite Hp, Hf. unfold prepend. cbn [fst snd].
  pose proof (hf_lab ks i t cur p) as Hl. rewrite Hf in Hl. cbn [fst snd] in Hl. rewrite (Hl He).
  destruct s1; try discriminate He;
    (destruct (tree_step st i t (tok_label t)) as [st'|e]; [apply IH | reflexivity]).
Qed.

Theorem build_with_hash_tree v : wf_value v = true ->
  build_with_hash H (flatten v) = inl (Some (hashed_tree H v)).
Proof.
  intros Hwf. unfold build_with_hash.
  rewrite (build_h_from_follows _ _ _ _ (sink_follows H v Hwf _ [] 0 (awaits_await H []))).
  pose proof (run_root tok_label v tok_label_open Hwf) as Hrun. unfold run_l in Hrun.
  destruct (build_l tok_label [root_frame] 0 (flatten v)) as [st'|e]; [|discriminate].
  injection Hrun as Hst. cbv beta iota.
  assert (Hfin : forall h, tree_finish st' h
                           = inl (Some (set_hash h (tree_of (fun t => norm_hash (leaf_hash H t)) 0 v)))).
  { intros h. rewrite <- tree_finish_settle, Hst, (tree_of_labels v Hwf). reflexivity. }
  destruct (hafter_pending H v 0 []) as [[t ->] | (sub & ks' & E)].
  - (* a single leaf: the sink is done, and the root label is the leaf's *)
    apply wf_leaf_inv in Hwf. destruct Hwf as [Hl Hw].
    cbn [hafter deliver flatten fold_left last_hash]. cbv beta iota.
    rewrite Hfin, (tok_label_leaf t Hl Hw). reflexivity.
  - (* otherwise the end-of-stream signal makes the sink close the root, whose hash comes last *)
    rewrite E. cbv beta iota. rewrite <- E.
    destruct (hafter_step H v 0 [] (length (flatten v)) None) as (p & -> & [(t & -> & _) | (p' & ->)]);
      [discriminate E|].
    cbn [deliver hstep]. unfold prepend. cbn [fst snd].
    rewrite app_nil_r, Hfin, last_hash_snoc, ev_lab_some. reflexivity.
Qed.

End HashTree.

Example build_with_hash_tree_ex :
  let Hx := fun b : bytes => [N.of_nat (length b); 7%N] in
  let v := Comp KArray KArrayEnd [Named [97%N] (Named [98%N] (Leaf (T KInt (VI WNat 1)))); Leaf (T KRef (VBytes [5%N]))] in
  wf_value v = true /\ build_with_hash Hx (flatten v) = inl (Some (hashed_tree Hx v)).
Proof. intros Hx v. split; [reflexivity | exact (build_with_hash_tree Hx v eq_refl)]. Qed.

Module Examples.
  Definition Hx (b : bytes) : bytes := N.of_nat (length b) :: b.
  Definition inner : value := Named [97%N] (Named [98%N] (Leaf (T KInt (VI WNat 1)))).
  Definition v0 : value :=
    Comp KArray KArrayEnd [inner; Leaf (T KInt (VI WNat 2)); Comp KTuple KTupleEnd [Leaf (T KNil VNone)]].

  Example v0_wf : wf_value v0 = true.
  Proof. reflexivity. Qed.

  Example build_iter_ex :
    build (flatten v0) = inl (Some (plain_tree 0 v0)) /\ iter (plain_tree 0 v0) = flatten v0.
  Proof. split; [exact (build_tree_of v0 v0_wf) | apply iter_tree_of]. Qed.

  Example stray_end_ex : build (flatten v0 ++ [T KMapEnd VNone; T KNil VNone]) = inr EUnexpEndTok.
  Proof. exact (stray_end v0 KMapEnd [T KNil VNone] v0_wf eq_refl). Qed.

  Example more_than_one_ex : build (flatten v0 ++ flatten inner) = inr EMoreThanOne.
  Proof. exact (more_than_one v0 inner v0_wf eq_refl). Qed.

  Example fill_hash_ex :
    fill_hash Hx (plain_tree 0 v0) = inl (full_tree Hx 0 v0) /\
    t_hash (full_tree Hx 0 v0) = Some (mhash Hx v0).
  Proof. split; [exact (fill_hash_full Hx v0 v0_wf 0) | apply t_hash_full]. Qed.

  Example find_ex :
    subvalue inner v0 /\ mhash Hx inner <> [] /\
    find_by_hash Hx (flatten v0) (mhash Hx inner) = inl (flatten inner).
  Proof.
    split; [apply (sv_item _ _ _ _ inner); [left; reflexivity | constructor]|].
    split; [discriminate | reflexivity].
  Qed.

  (* the second alternative of find_sound is real: an end marker's own hash finds the bare marker *)
  Example find_end_marker_ex :
    find_by_hash Hx (flatten v0) (Hx [KTupleEnd]) = inl [T KTupleEnd VNone].
  Proof. reflexivity. Qed.

  Example find_absent_ex : find_by_hash Hx (flatten v0) [1%N; 2%N; 3%N] = inr ENotFound.
  Proof. reflexivity. Qed.

  Example iter_func_subst_ex :
    (forall j, In j [1; 6] -> ~ In j (end_indices 0 v0)) /\
    iter_func (ref_fn [1; 6]) (full_tree Hx 0 v0) = flatten (subst_at Hx [1; 6] 0 v0) /\
    subst_at Hx [1; 6] 0 v0 =
      Comp KArray KArrayEnd [Leaf (T KRef (VBytes (mhash Hx inner))); Leaf (T KInt (VI WNat 2));
                             Comp KTuple KTupleEnd [Leaf (T KRef (VBytes (mhash Hx (Leaf (T KNil VNone)))))]].
  Proof.
    assert (Hsel : forall j, In j [1; 6] -> ~ In j (end_indices 0 v0)).
    { intros j [<- | [<- | []]]; vm_compute; intros [E | [E | []]]; discriminate E. }
    split; [exact Hsel | split; [exact (iter_func_subst Hx _ 0 v0 Hsel) | reflexivity]].
  Qed.

  Example build_with_hash_ex : build_with_hash Hx (flatten v0) = inl (Some (hashed_tree Hx v0)).
  Proof. exact (build_with_hash_tree Hx v0 v0_wf). Qed.
End Examples.

Print Assumptions build_tree_of.
Print Assumptions iter_tree_of.
Print Assumptions iter_func_none.
Print Assumptions build_iter.
Print Assumptions stray_end.
Print Assumptions stray_end_first.
Print Assumptions more_than_one.
Print Assumptions build_empty.
Print Assumptions fill_hash_full.
Print Assumptions fill_hash_tree_of.
Print Assumptions fill_hash_root.
Print Assumptions build_with_hash_tree.
Print Assumptions find_sound.
Print Assumptions find_complete.
Print Assumptions find_absent.
Print Assumptions find_result_hash.
Print Assumptions iter_func_subst.
