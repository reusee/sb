(* Proofs/RecycledP.v — recycled targets (Model/Unmarshal.v): what a slice target held before the call
   influences the result only as a prefix.  A slice cut back to length 0 (s[:0]) or one that still holds
   earlier elements receives exactly the elements a fresh nil slice receives: every appended element is
   unmarshalled from [zero e], so nothing of the old content (and nothing behind the slice's length, which
   the model does not even have) reaches the new elements.  The same for []byte read from an Array token;
   a Bytes token replaces the content instead. *)
From Coq Require Import Lia ZifyBool ZifyNat ZifyN Arith.
From SbModel Require Import Spec.Conform Proofs.UnmarshalP.
Local Open Scope N_scope.

Lemma slice_loop_prefix : forall (rec : rec_t) g et old acc ts,
  slice_loop rec g et (old ++ acc) ts =
  match slice_loop rec g et acc ts with
  | Ok (vs, rest) => Ok (old ++ vs, rest)
  | Err e => Err e
  | OutOfFuel => OutOfFuel
  end.
Proof.
  intros rec g et old. induction g as [|g IH]; intros acc ts; cbn [slice_loop]; [reflexivity|].
  destruct ts as [|tk rest].
  - destruct (rec et (zero et) []) as [r|e|]; cbn [bind]; reflexivity.
  - destruct (kind tk =? KArrayEnd); [reflexivity|].
    destruct (rec et (zero et) (tk :: rest)) as [[v r]|e|]; cbn [bind fst snd]; [|reflexivity|reflexivity].
    rewrite <- app_assoc. apply IH.
Qed.

Lemma slice_loop_from_nil (rec : rec_t) g et old ts :
  slice_loop rec g et old ts =
  match slice_loop rec g et [] ts with
  | Ok (vs, rest) => Ok (old ++ vs, rest)
  | Err e => Err e
  | OutOfFuel => OutOfFuel
  end.
Proof.
  pose proof (slice_loop_prefix rec g et old [] ts) as H. rewrite app_nil_r in H. exact H.
Qed.

Definition is_nil_list {A} (l : list A) : bool := match l with [] => true | _ => false end.

Lemma is_nil_list_map {A B} (g : A -> B) (l : list A) : is_nil_list (map g l) = is_nil_list l.
Proof. destruct l; reflexivity. Qed.

Lemma to_bytes_uints (s : bytes) : to_bytes (map GUint s) = s.
Proof.
  unfold to_bytes. induction s as [|c s IH]; cbn [map]; [reflexivity|]. rewrite IH. reflexivity.
Qed.

Lemma to_bytes_app (a b : list gval) : to_bytes (a ++ b) = to_bytes a ++ to_bytes b.
Proof. unfold to_bytes. apply map_app. Qed.

Lemma unm_slice_array_shape pf f o R t e cur tk rest v rest' :
  underlying t = TSlice e -> kind tk = KArray ->
  unm pf f o R t cur (tk :: rest) = Ok (v, rest') ->
  exists nb vs, v = GList nb vs.
Proof.
  intros Hu Hk. destruct f as [|f]; [rewrite unm_O; discriminate|].
  rewrite unm_array_tok, Hu by (assumption || (rewrite Hu; reflexivity)). unfold array_case.
  destruct (slice_loop (unm pf f o R) (S (length rest)) e (items_of_gval cur) rest) as [[vs r]|e'|];
    cbn [bind fst snd]; intros H; [|discriminate|discriminate].
  injection H as <- <-. eexists; eexists; reflexivity.
Qed.

Theorem unm_slice_appends : forall pf f o R t e nb old tk rest,
  underlying t = TSlice e -> kind tk = KArray ->
  unm pf f o R t (GList nb old) (tk :: rest) =
  match unm pf f o R t (GList true []) (tk :: rest) with
  | Ok (GList _ vs, rest') =>
      Ok (GList (nb && match old ++ vs with [] => true | _ => false end) (old ++ vs), rest')
  | Ok (v, rest') => Ok (v, rest')          (* unreachable: unm_slice_array_shape *)
  | Err e => Err e
  | OutOfFuel => OutOfFuel
  end.
Proof.
  intros pf f o R t e nb old tk rest Hu Hk.
  destruct f as [|f]; [rewrite !unm_O; reflexivity|].
  rewrite !unm_array_tok, Hu by (assumption || (rewrite Hu; reflexivity)). unfold array_case.
  cbn [items_of_gval is_nil_container].
  rewrite (slice_loop_from_nil _ _ _ old).
  destruct (slice_loop (unm pf f o R) (S (length rest)) e [] rest) as [[vs r]|e'|];
    cbn [bind fst snd]; reflexivity.
Qed.

Corollary unm_slice_appends_ok pf f o R t e nb old tk rest n vs rest' :
  underlying t = TSlice e -> kind tk = KArray ->
  unm pf f o R t (GList true []) (tk :: rest) = Ok (GList n vs, rest') ->
  unm pf f o R t (GList nb old) (tk :: rest) = Ok (GList (nb && is_nil_list (old ++ vs)) (old ++ vs), rest').
Proof.
  intros Hu Hk H. rewrite (unm_slice_appends pf f o R t e nb old tk rest Hu Hk), H. reflexivity.
Qed.

Corollary unm_slice_appends_err pf f o R t e nb old tk rest err :
  underlying t = TSlice e -> kind tk = KArray ->
  unm pf f o R t (GList true []) (tk :: rest) = Err err ->
  unm pf f o R t (GList nb old) (tk :: rest) = Err err.
Proof.
  intros Hu Hk H. rewrite (unm_slice_appends pf f o R t e nb old tk rest Hu Hk), H. reflexivity.
Qed.

(* s[:0]: a non-nil slice of length 0 *)
Corollary unm_slice_recycled : forall pf f o R t e tk rest,
  underlying t = TSlice e -> kind tk = KArray ->
  unm pf f o R t (GList false []) (tk :: rest) =
  match unm pf f o R t (GList true []) (tk :: rest) with
  | Ok (GList _ vs, rest') => Ok (GList false vs, rest')
  | Ok (v, rest') => Ok (v, rest')          (* unreachable: unm_slice_array_shape *)
  | Err e => Err e
  | OutOfFuel => OutOfFuel
  end.
Proof.
  intros pf f o R t e tk rest Hu Hk.
  rewrite (unm_slice_appends pf f o R t e false [] tk rest Hu Hk).
  destruct (unm pf f o R t (GList true []) (tk :: rest)) as [[v r]|e'|]; [|reflexivity|reflexivity].
  destruct v; reflexivity.
Qed.

Corollary unm_slice_old_irrelevant pf f o R t e nb1 old1 nb2 old2 tk rest n1 r1 rest1 :
  underlying t = TSlice e -> kind tk = KArray ->
  unm pf f o R t (GList nb1 old1) (tk :: rest) = Ok (GList n1 r1, rest1) ->
  exists vs, r1 = old1 ++ vs /\
    unm pf f o R t (GList nb2 old2) (tk :: rest) = Ok (GList (nb2 && is_nil_list (old2 ++ vs)) (old2 ++ vs), rest1).
Proof.
  intros Hu Hk H.
  rewrite (unm_slice_appends pf f o R t e nb1 old1 tk rest Hu Hk) in H.
  rewrite (unm_slice_appends pf f o R t e nb2 old2 tk rest Hu Hk).
  destruct (unm pf f o R t (GList true []) (tk :: rest)) as [[v r]|e'|] eqn:E; [|discriminate|discriminate].
  destruct (unm_slice_array_shape pf f o R t e _ tk rest v r Hu Hk E) as [n [vs ->]].
  injection H as _ <- <-. exists vs. split; reflexivity.
Qed.

Lemma unm_bytes_array_shape pf f o R t cur tk rest v rest' :
  underlying t = TBytes -> kind tk = KArray ->
  unm pf f o R t cur (tk :: rest) = Ok (v, rest') ->
  exists nb s, v = GBytes nb s.
Proof.
  intros Hu Hk. destruct f as [|f]; [rewrite unm_O; discriminate|].
  rewrite unm_array_tok, Hu by (assumption || (rewrite Hu; reflexivity)). unfold array_case.
  destruct (slice_loop (unm pf f o R) (S (length rest)) (TUint W8) (items_of_gval cur) rest) as [[vs r]|e'|];
    cbn [bind fst snd]; intros H; [|discriminate|discriminate].
  injection H as <- <-. eexists; eexists; reflexivity.
Qed.

Theorem unm_bytes_appends : forall pf f o R t nb old tk rest,
  underlying t = TBytes -> kind tk = KArray ->
  unm pf f o R t (GBytes nb old) (tk :: rest) =
  match unm pf f o R t (GBytes true []) (tk :: rest) with
  | Ok (GBytes _ s, rest') =>
      Ok (GBytes (nb && match old ++ s with [] => true | _ => false end) (old ++ s), rest')
  | Ok (v, rest') => Ok (v, rest')          (* unreachable: unm_bytes_array_shape *)
  | Err e => Err e
  | OutOfFuel => OutOfFuel
  end.
Proof.
  intros pf f o R t nb old tk rest Hu Hk.
  destruct f as [|f]; [rewrite !unm_O; reflexivity|].
  rewrite !unm_array_tok, Hu by (assumption || (rewrite Hu; reflexivity)). unfold array_case.
  cbn [items_of_gval is_nil_container map].
  rewrite (slice_loop_from_nil _ _ _ (map GUint old)).
  destruct (slice_loop (unm pf f o R) (S (length rest)) (TUint W8) [] rest) as [[vs r]|e'|];
    cbn [bind fst snd]; [|reflexivity|reflexivity].
  rewrite to_bytes_app, to_bytes_uints.
  destruct old as [|c old']; [destruct vs|]; reflexivity.
Qed.

Corollary unm_bytes_recycled : forall pf f o R t tk rest,
  underlying t = TBytes -> kind tk = KArray ->
  unm pf f o R t (GBytes false []) (tk :: rest) =
  match unm pf f o R t (GBytes true []) (tk :: rest) with
  | Ok (GBytes _ s, rest') => Ok (GBytes false s, rest')
  | Ok (v, rest') => Ok (v, rest')
  | Err e => Err e
  | OutOfFuel => OutOfFuel
  end.
Proof.
  intros pf f o R t tk rest Hu Hk.
  rewrite (unm_bytes_appends pf f o R t false [] tk rest Hu Hk).
  destruct (unm pf f o R t (GBytes true []) (tk :: rest)) as [[v r]|e'|]; [|reflexivity|reflexivity].
  destruct v; reflexivity.
Qed.

(* a Bytes token replaces the content (unmarshal.go, case KindBytes: target.Elem().Set on the token's slice) *)
Theorem unm_bytes_token_replaces : forall pf f o R t cur tk s rest,
  kind tk = KBytes -> val tk = VBytes s -> underlying t = TBytes ->
  unm pf (S f) o R t cur (tk :: rest) = Ok (GBytes false s, rest).
Proof.
  intros pf f o R t cur [k v] s rest Hk Hv Hu. cbn [kind val] in Hk, Hv. subst k v. apply unm_bytes, Hu.
Qed.

(* type Item struct { Note string; N int } *)
Definition ExItem : ty := TStruct [([78; 111; 116; 101], true, TString); ([78], true, TInt WNat)].
(* type Items []Item: the premise of the theorems holds through the type definition *)
Definition ExItems : ty := TNamed [73; 116; 101; 109; 115] false [] (TSlice ExItem).
Definition ex_urgent : bytes := [117; 114; 103; 101; 110; 116].
Definition ex_old : list gval := [GStruct [GStr ex_urgent; GInt 7]].
Definition ex_stream : list token :=
  [T KArray VNone;
   T KObject VNone; T KString (VStr [78]); T KInt (VI WNat 1); T KObjectEnd VNone;
   T KObject VNone; T KString (VStr [78]); T KInt (VI WNat 2); T KObjectEnd VNone;
   T KArrayEnd VNone; T KBool (VBool true)].
Definition ex_pf : bytes -> N -> option N := fun _ _ => None.

Example ex_hyps : underlying ExItems = TSlice ExItem /\ kind (hd (T 0 VNone) ex_stream) = KArray.
Proof. split; reflexivity. Qed.

Example ex_fresh :
  unm ex_pf 10 default_opts [] ExItems (GList true []) ex_stream
  = Ok (GList false [GStruct [GStr []; GInt 1]; GStruct [GStr []; GInt 2]], [T KBool (VBool true)]).
Proof. vm_compute. reflexivity. Qed.

(* a target still holding an element whose Note is "urgent": the new elements have Note "" *)
Example ex_holding :
  unm ex_pf 10 default_opts [] ExItems (GList false ex_old) ex_stream
  = Ok (GList false [GStruct [GStr ex_urgent; GInt 7]; GStruct [GStr []; GInt 1]; GStruct [GStr []; GInt 2]],
        [T KBool (VBool true)]).
Proof. vm_compute. reflexivity. Qed.

Example ex_holding_is_old_app_fresh :
  forall n vs rest', unm ex_pf 10 default_opts [] ExItems (GList true []) ex_stream = Ok (GList n vs, rest') ->
  unm ex_pf 10 default_opts [] ExItems (GList false ex_old) ex_stream = Ok (GList false (ex_old ++ vs), rest').
Proof.
  intros n vs rest' H. rewrite ex_fresh in H. injection H as <- <- <-. vm_compute. reflexivity.
Qed.

Example ex_holding_thm pf f o R n vs rest' :
  unm pf f o R ExItems (GList true []) ex_stream = Ok (GList n vs, rest') ->
  unm pf f o R ExItems (GList false ex_old) ex_stream = Ok (GList false (ex_old ++ vs), rest').
Proof.
  intros H. unfold ex_stream in *.
  apply (unm_slice_appends_ok pf f o R ExItems ExItem false ex_old _ _ n vs rest'); [reflexivity|reflexivity|exact H].
Qed.

Example ex_cut_back :
  unm ex_pf 10 default_opts [] ExItems (GList false []) ex_stream
  = Ok (GList false [GStruct [GStr []; GInt 1]; GStruct [GStr []; GInt 2]], [T KBool (VBool true)]).
Proof. vm_compute. reflexivity. Qed.

Example ex_empty_array :
  unm ex_pf 10 default_opts [] ExItems (GList true []) [T KArray VNone; T KArrayEnd VNone] = Ok (GList true [], []) /\
  unm ex_pf 10 default_opts [] ExItems (GList false []) [T KArray VNone; T KArrayEnd VNone] = Ok (GList false [], []).
Proof. split; vm_compute; reflexivity. Qed.

Example ex_fail :
  unm ex_pf 10 default_opts [] ExItems (GList true []) [T KArray VNone; T KBool (VBool true)]
  = unm ex_pf 10 default_opts [] ExItems (GList false ex_old) [T KArray VNone; T KBool (VBool true)].
Proof. vm_compute. reflexivity. Qed.

Definition ex_bytes_stream : list token :=
  [T KArray VNone; T KUint8 (VU W8 1); T KUint8 (VU W8 2); T KArrayEnd VNone].

Example ex_bytes_append :
  unm ex_pf 10 default_opts [] TBytes (GBytes true []) ex_bytes_stream = Ok (GBytes false [1; 2], []) /\
  unm ex_pf 10 default_opts [] TBytes (GBytes false [9; 8]) ex_bytes_stream = Ok (GBytes false [9; 8; 1; 2], []) /\
  unm ex_pf 10 default_opts [] TBytes (GBytes false []) ex_bytes_stream = Ok (GBytes false [1; 2], []).
Proof. repeat split; vm_compute; reflexivity. Qed.

Example ex_bytes_replace :
  unm ex_pf 10 default_opts [] TBytes (GBytes false [9; 8]) [T KBytes (VBytes [1; 2])] = Ok (GBytes false [1; 2], []).
Proof. apply unm_bytes_token_replaces; reflexivity. Qed.

Print Assumptions slice_loop_prefix.
Print Assumptions unm_slice_array_shape.
Print Assumptions unm_slice_appends.
Print Assumptions unm_slice_appends_ok.
Print Assumptions unm_slice_appends_err.
Print Assumptions unm_slice_recycled.
Print Assumptions unm_slice_old_irrelevant.
Print Assumptions unm_bytes_array_shape.
Print Assumptions unm_bytes_appends.
Print Assumptions unm_bytes_recycled.
Print Assumptions unm_bytes_token_replaces.
Print Assumptions ex_holding_thm.
