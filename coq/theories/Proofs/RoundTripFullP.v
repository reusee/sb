(* Proofs/RoundTripFullP.v — C01, the typed round trip on the part of the type universe that
   Proofs/UnmarshalP.v leaves out: maps, interface-typed positions, tuple funcs (and every
   composite of them with the first universe).

   Main results, all under  wf_ty t, ty_ok t, has_type t v, dom R t v, marshal default_opts t v = Ok ts:
     roundtrip_full_partial_fuel    for every f with 2 * fsz v + length ts < f there is v' with
                                    unm pf f o R t (zero t) (ts ++ rest) = Ok (v', rest), equiv t v v' and
                                    marshal default_opts t v' = Ok ts
     roundtrip_full_partial         the property's shape: some f and v' with the first two of these
     roundtrip_full_partial_stable  one v' for every such f
     equiv_normal              [equiv] extends the functional equivalence [normal] of the first universe
     roundtrip_full_refuted    six witnesses at the edges that [ty_ok] / [dom] cut away

   A name ending in F is the counterpart, over this universe, of a lemma or definition of
   Proofs/UnmarshalP.v (strip_headF of strip_head, elemF of elem_ok, struct_loop_F of struct_loop_rt,
   rtF of rt_ok_w); the list loops are read through [slice_loop_reads] / [arr_loop_reads] of that file.

   "partial": what is left out is
     - map keys holding a non-nil interface value elsewhere than at the top of the key, or at the
       top with a stream of more than one token                             (see [keyin]);
     - interface-typed positions whose dynamic value is neither a value of a registered defined
       type known to the registry nor a value whose stream lies in the canonical schema-less
       domain of Proofs/AnyP.v                                              (see [dom]);
     - registered defined types over (pointers to) interfaces, funcs with more than 50 results
                                                                            (see [ty_ok]). *)
From Coq Require Import List NArith ZArith Bool Lia ZifyBool ZifyNat ZifyN Arith Permutation Sorted.
From SbModel Require Import Spec.LexOrder Spec.Conform Spec.ConformSpec.
From SbModel Require Import Proofs.CompareP Proofs.MarshalP Proofs.AnyP Proofs.UnmarshalP.
Import ListNotations.
Local Open Scope N_scope.

(* a type whose chain of pointers (and type definitions) ends at the empty interface: such a
   target does not skip a leading TypeName token, it looks the name up in the registry *)
Definition anyb (t : ty) : bool := match ptr_base t with TAny => true | _ => false end.

Lemma anyb_concrete t : concrete_target t = negb (anyb t).
Proof. symmetry. apply concrete_target_negb. Qed.

(* values that marshal to the single token Nil (under the default options) *)
Fixpoint nilish (v : gval) : bool :=
  match v with
  | GPtr None => true
  | GPtr (Some x) => nilish x
  | GAny None => true
  | GAny (Some (_, x)) => nilish x
  | _ => false
  end.

Definition is_leafv (v : gval) : bool :=
  match v with
  | GBool _ | GInt _ | GUint _ | GF32 _ | GF64 _ | GStr _ | GBytes _ _ | GTime _ => true
  | _ => false
  end.

Fixpoint noany (v : gval) : bool :=
  match v with
  | GAny (Some _) => false
  | GList _ l => forallb noany l
  | GStruct l => forallb noany l
  | GMap _ es => forallb (fun e => noany (fst e) && noany (snd e)) es
  | GPtr (Some x) => noany x
  | GFunc (Some l) => forallb noany l
  | _ => true
  end.

(* What a map key may be: a value with no non-nil interface value inside, or (at the top of the
   key) an interface holding a value whose stream is ONE scalar token (an int, a string, a defined
   scalar, a pointer to a scalar, a byte array, ...): such a key is decoded to the scalar of the
   token's own type, which is hashable; a Bytes token is decoded to a []byte and converted by the
   unmarshaller's toComparable to a byte array of the same length.  (An interface key holding an
   array of ints is decoded into a []any, which is not hashable: witness 3 of
   roundtrip_full_refuted.  A []byte itself cannot be a key of a Go map; the model does not
   distinguish it from a byte array on the wire.) *)
Definition keyin (v : gval) : bool :=
  match v with
  | GAny (Some (t', x)) =>
      wf_ty t' && wf_dyn x &&
      match marshal default_opts t' x with
      | Ok [tok] => match any_of_token tok with
                    | None => false
                    | Some _ => true
                    end
      | _ => false
      end
  | _ => noany v
  end.

(* what the key stored in the decoded map then is (after toComparable) *)
Definition keyable (v : gval) : bool :=
  match v with
  | GAny (Some (st, sv)) =>
      match st with
      | TBool | TInt _ | TUint _ | TUintptr | TF32 | TF64 | TString | TByteArray _ => is_leafv sv
      | _ => false
      end
  | _ => noany v
  end.

(* the static types covered:
   - a tuple func has at most 50 results: unmarshal.go (unmarshalTuple) answers TooManyElement, ETooMany in
     the model, for a tuple of more than 50 values that is to be stored as a func() (...) value;
   - a REGISTERED defined type is not an interface type nor a pointer (chain) to an interface:
     for those the target interprets its own TypeName (witness 2 of roundtrip_full_refuted) *)
Fixpoint ty_ok (t : ty) : bool :=
  match t with
  | TArray _ e | TSlice e | TPtr e => ty_ok e
  | TMap k v => ty_ok k && ty_ok v
  | TStruct fs => forallb (fun f => ty_ok (snd f)) fs
  | TFunc outs => forallb ty_ok outs && Nat.leb (length outs) 50
  | TNamed _ reg _ u => ty_ok u && negb (reg && anyb u)
  | _ => true
  end.

(* a parser from token lists to abstract values, used to state "the stream of this dynamic value
   lies in the canonical schema-less domain" as a boolean *)
Fixpoint aparse (fuel : nat) (ts : list token) {struct fuel} : option (value * list token) :=
  match fuel with
  | O => None
  | S f =>
    match ts with
    | [] => None
    | T k VNone :: r =>
        if is_open_kind k then
          match aitems f r with
          | Some (items, kc, r') => Some (Comp k kc items, r')
          | None => None
          end
        else if is_end_kind k then None
        else Some (Leaf (T k VNone), r)
    | tk :: r =>
        if is_open_kind (kind tk) || is_end_kind (kind tk) || (kind tk =? KTypeName) then None
        else Some (Leaf tk, r)
    end
  end
with aitems (fuel : nat) (ts : list token) {struct fuel} : option (list value * N * list token) :=
  match fuel with
  | O => None
  | S f =>
    match ts with
    | [] => None
    | T k VNone :: r =>
        if is_end_kind k then Some ([], k, r)
        else match aparse f ts with
             | Some (v, r') =>
                 match aitems f r' with
                 | Some (vs, kc, r'') => Some (v :: vs, kc, r'')
                 | None => None
                 end
             | None => None
             end
    | _ :: _ =>
        match aparse f ts with
        | Some (v, r') =>
            match aitems f r' with
            | Some (vs, kc, r'') => Some (v :: vs, kc, r'')
            | None => None
            end
        | None => None
        end
    end
  end.

(* one step of each parser, with the test "the token carries no value" as a boolean, so that no proof
   has to go through the nine forms of a token value *)
Definition novalue (tk : token) : bool := match val tk with VNone => true | _ => false end.

Lemma novalue_eq tk : novalue tk = true -> tk = T (kind tk) VNone.
Proof. destruct tk as [k []]; try discriminate; reflexivity. Qed.

Lemma aparse_S f tk r : aparse (S f) (tk :: r) =
  if novalue tk then
    if is_open_kind (kind tk) then
      match aitems f r with Some (items, kc, r') => Some (Comp (kind tk) kc items, r') | None => None end
    else if is_end_kind (kind tk) then None else Some (Leaf tk, r)
  else if is_open_kind (kind tk) || is_end_kind (kind tk) || (kind tk =? KTypeName) then None
       else Some (Leaf tk, r).
Proof. destruct tk as [k []]; reflexivity. Qed.

Lemma aitems_S f tk r : aitems (S f) (tk :: r) =
  if novalue tk && is_end_kind (kind tk) then Some ([], kind tk, r)
  else match aparse f (tk :: r) with
       | Some (v, r') => match aitems f r' with Some (vs, kc, r'') => Some (v :: vs, kc, r'') | None => None end
       | None => None
       end.
Proof. destruct tk as [k []]; reflexivity. Qed.

Lemma aparse_sound : forall f,
  (forall ts w r, aparse f ts = Some (w, r) -> ts = flatten w ++ r) /\
  (forall ts vs kc r, aitems f ts = Some (vs, kc, r) -> ts = flat_map flatten vs ++ T kc VNone :: r).
Proof.
  induction f as [|f [IHp IHi]]; [split; intros; discriminate|]. split.
  - intros [|tk ts'] w r H; [discriminate H|]. rewrite aparse_S in H. destruct (novalue tk) eqn:Ev.
    + destruct (is_open_kind (kind tk)).
      * destruct (aitems f ts') as [[[items kc] r']|] eqn:E; [|discriminate H]. injection H as <- <-.
        apply IHi in E. subst ts'. cbn [flatten app]. rewrite <- app_assoc. cbn [app]. f_equal. exact (novalue_eq tk Ev).
      * destruct (is_end_kind (kind tk)); [discriminate H|]. injection H as <- <-. reflexivity.
    + destruct (is_open_kind (kind tk) || is_end_kind (kind tk) || (kind tk =? KTypeName)); [discriminate H|].
      injection H as <- <-. reflexivity.
  - intros [|tk ts'] vs kc r H; [discriminate H|]. rewrite aitems_S in H.
    destruct (novalue tk && is_end_kind (kind tk)) eqn:Ev.
    + injection H as <- <- <-. apply andb_true_iff in Ev. cbn [flat_map app]. f_equal. exact (novalue_eq tk (proj1 Ev)).
    + destruct (aparse f (tk :: ts')) as [[v0 r']|] eqn:E1; [|discriminate H].
      destruct (aitems f r') as [[[vs0 kc0] r'']|] eqn:E2; [|discriminate H]. injection H as <- <- <-.
      apply IHp in E1. apply IHi in E2. rewrite E1, E2. cbn [flat_map]. rewrite <- app_assoc. reflexivity.
Qed.

Definition any_stream_ok (t' : ty) (x : gval) : bool :=
  match marshal default_opts t' x with
  | Ok ts => match aparse (S (length ts)) ts with
             | Some (w, []) => any_okb w
             | _ => false
             end
  | _ => false
  end.

Lemma any_stream_ok_inv t' x : any_stream_ok t' x = true ->
  exists w, any_okb w = true /\ marshal default_opts t' x = Ok (flatten w).
Proof.
  unfold any_stream_ok. destruct (marshal default_opts t' x) as [ts| |]; try discriminate.
  destruct (aparse (S (length ts)) ts) as [[w r]|] eqn:E; [|discriminate].
  destruct r; [|discriminate]. intros H. exists w. split; [exact H|].
  apply (proj1 (aparse_sound _)) in E. rewrite app_nil_r in E. rewrite E. reflexivity.
Qed.

Definition reg_name (t : ty) : option bytes := match t with TNamed n true _ _ => Some n | _ => None end.

Lemma reg_name_prefix t n : reg_name t = Some n -> reg_prefix t = [T KTypeName (VStr n)].
Proof. destruct t; try discriminate. cbn [reg_name reg_prefix]. destruct reg; [|discriminate]. intros H. injection H as <-. reflexivity. Qed.

Definition streams_differ (kt : ty) (a b : gval) : bool :=
  match marshal default_opts kt a, marshal default_opts kt b with
  | Ok s1, Ok s2 => match lex s1 s2 with Eq => false | _ => true end
  | _, _ => false
  end.

Fixpoint keys_differ (kt : ty) (ks : list gval) : bool :=
  match ks with
  | [] => true
  | k :: r => forallb (streams_differ kt k) r && keys_differ kt r
  end.

(* The domain of the theorem, relative to the registry, by recursion on the value along its
   static type:
   - a non-nil pointer does not point to a value that marshals to Nil (a nil pointer, a nil
     interface, an interface holding one of those): this refines [no_ptr_to_nil];
   - the keys of a map have pairwise different key streams and are [keyin];
   - a nil func has no results;
   - an interface-typed position is nil, or holds a value of a REGISTERED defined type that
     the registry maps to that very type (and that value is in the domain at that type), or
     holds a value whose stream lies in the canonical schema-less domain of Proofs/AnyP.v
     (a boolean: the stream is parsed back and checked with [any_okb]);
   - unexported struct fields are unconstrained (they are not on the wire) *)
Fixpoint dom (R : registry) (t : ty) (v : gval) {struct v} : Prop :=
  match v with
  | GList _ items =>
      let e := elem_ty t in
      (fix all (l : list gval) : Prop := match l with [] => True | x :: r => dom R e x /\ all r end) items
  | GStruct vals =>
      (fix all (l : list gval) (f : list (bytes * bool * ty)) : Prop :=
         match l, f with
         | x :: r, fd :: fr => (fexported fd = true -> dom R (snd fd) x) /\ all r fr
         | _, _ => True
         end) vals (fields_of t)
  | GMap _ es =>
      let kt := fst (kv_ty t) in
      let vt := snd (kv_ty t) in
      keys_differ kt (map fst es) = true /\ forallb keyin (map fst es) = true /\
      (fix all (l : list (gval * gval)) : Prop :=
         match l with [] => True | (k, x) :: r => (dom R kt k /\ dom R vt x) /\ all r end) es
  | GPtr (Some x) => nilish x = false /\ dom R (pointee_ty t) x
  | GAny (Some (t', x)) =>
      match reg_name t' with
      | Some n => reg_lookup R n = Some t' /\ wf_ty t' = true /\ ty_ok t' = true /\ dom R t' x
      | None => any_stream_ok t' x = true
      end
  | GFunc None => outs_of t = []
  | GFunc (Some items) =>
      (fix all (l : list gval) (ts : list ty) : Prop :=
         match l, ts with
         | x :: r, xt :: tr => dom R xt x /\ all r tr
         | _, _ => True
         end) items (outs_of t)
  | _ => True
  end.

(* The property's sentence: "a value EQUIVALENT to v, where equivalent = deeply equal except:
   nil and empty slices/maps coincide, NaN equals NaN, tuple funcs are compared by the values
   they return, and interface-typed positions are compared by their canonical token stream".

   [equiv t v v'] by recursion on v along the static type t, with the conventions of [normal]:
   - bool, ints, uints, strings, time values: equal;
   - floats: equal bit patterns, or both NaN                       ("NaN equals NaN");
   - byte slices / slices: same content, same nil-ness unless empty ("nil and empty coincide");
     arrays, byte arrays: same content (isnil is false on both sides by typing);
   - maps: same nil-ness unless empty, same number of entries, every entry of v has an entry
     of v' with equivalent key and equivalent value, and conversely   (equal as finite maps,
     whatever the entry order);
   - structs: field by field; exported fields equivalent, UNEXPORTED fields of the result are
     zero (they are not on the wire; this is the convention of [normal]);
   - pointers: both nil, or both non-nil with equivalent pointees;
   - interface-typed positions: the two interface values have the same canonical token stream
     (marshal default_opts TAny x = marshal default_opts TAny y), whatever their dynamic types;
     a nil interface comes back nil (stronger than the sentence, which would also accept an
     interface holding a nil pointer);
   - tuple funcs: the result lists are pointwise equivalent; a nil func and a func returning no
     values coincide. *)
Fixpoint equiv (t : ty) (v v' : gval) {struct v} : Prop :=
  match v with
  | GBool _ | GInt _ | GUint _ | GStr _ | GTime _ => v' = v
  | GF32 b => match v' with
              | GF32 b' => b' = b \/ (f32_is_nan b = true /\ f32_is_nan b' = true)
              | _ => False
              end
  | GF64 b => match v' with
              | GF64 b' => b' = b \/ (f64_is_nan b = true /\ f64_is_nan b' = true)
              | _ => False
              end
  | GBytes n s => match v' with
                  | GBytes n' s' => s' = s /\ (n' = n \/ s = [])
                  | _ => False
                  end
  | GList n l =>
      match v' with
      | GList n' l' =>
          (n' = n \/ l = []) /\
          (fix go (l : list gval) (l' : list gval) : Prop :=
             match l, l' with
             | [], [] => True
             | x :: r, x' :: r' => equiv (elem_ty t) x x' /\ go r r'
             | _, _ => False
             end) l l'
      | _ => False
      end
  | GMap n es =>
      match v' with
      | GMap n' es' =>
          (n' = n \/ es = []) /\ length es' = length es /\
          (fix all (l : list (gval * gval)) : Prop :=
             match l with
             | [] => True
             | (k, x) :: r =>
                 (exists e', In e' es' /\ equiv (fst (kv_ty t)) k (fst e') /\ equiv (snd (kv_ty t)) x (snd e')) /\
                 all r
             end) es /\
          Forall (fun e' =>
                    (fix any (l : list (gval * gval)) : Prop :=
                       match l with
                       | [] => False
                       | (k, x) :: r =>
                           (equiv (fst (kv_ty t)) k (fst e') /\ equiv (snd (kv_ty t)) x (snd e')) \/ any r
                       end) es) es'
      | _ => False
      end
  | GStruct l =>
      match v' with
      | GStruct l' =>
          (fix go (l : list gval) (l' : list gval) (f : list (bytes * bool * ty)) : Prop :=
             match l, l', f with
             | [], [], [] => True
             | x :: r, x' :: r', fd :: fr =>
                 (if fexported fd then equiv (snd fd) x x' else x' = zero (snd fd)) /\ go r r' fr
             | _, _, _ => False
             end) l l' (fields_of t)
      | _ => False
      end
  | GPtr None => v' = GPtr None
  | GPtr (Some x) => match v' with
                     | GPtr (Some x') => equiv (pointee_ty t) x x'
                     | _ => False
                     end
  | GAny None => v' = GAny None
  | GAny (Some d) => match v' with
                     | GAny d' => marshal default_opts TAny (GAny (Some d)) = marshal default_opts TAny (GAny d')
                     | _ => False
                     end
  | GFunc None => v' = GFunc None \/ v' = GFunc (Some [])
  | GFunc (Some l) =>
      match v' with
      | GFunc None => l = []
      | GFunc (Some l') =>
          (fix go (l : list gval) (l' : list gval) (ts : list ty) : Prop :=
             match l, l', ts with
             | [], [], _ => True
             | x :: r, x' :: r', xt :: tr => equiv xt x x' /\ go r r' tr
             | _, _, _ => False
             end) l l' (outs_of t)
      | _ => False
      end
  end.

(* the invariant of the proof: equivalent, marshalling again gives the identical stream, and a
   value that may be a map key comes back hashable *)
Definition Inv (t : ty) (v v' : gval) (ts : list token) : Prop :=
  equiv t v v' /\ marshal default_opts t v' = Ok ts /\ (keyin v = true -> keyable (to_comparable v') = true).

(* the local fixpoints of [dom] and [equiv] under names of their own *)
Definition dom_list (R : registry) (e : ty) : list gval -> Prop :=
  fix all (l : list gval) : Prop := match l with [] => True | x :: r => dom R e x /\ all r end.
Definition dom_fields (R : registry) : list gval -> list (bytes * bool * ty) -> Prop :=
  fix all (l : list gval) (f : list (bytes * bool * ty)) : Prop :=
    match l, f with
    | x :: r, fd :: fr => (fexported fd = true -> dom R (snd fd) x) /\ all r fr
    | _, _ => True
    end.
Definition dom_entries (R : registry) (kt vt : ty) : list (gval * gval) -> Prop :=
  fix all (l : list (gval * gval)) : Prop :=
    match l with [] => True | (k, x) :: r => (dom R kt k /\ dom R vt x) /\ all r end.
Definition dom_outs (R : registry) : list gval -> list ty -> Prop :=
  fix all (l : list gval) (ts : list ty) : Prop :=
    match l, ts with
    | x :: r, xt :: tr => dom R xt x /\ all r tr
    | _, _ => True
    end.

Lemma dom_list_eq R t n l : dom R t (GList n l) = dom_list R (elem_ty t) l.
Proof. reflexivity. Qed.
Lemma dom_struct_eq R t l : dom R t (GStruct l) = dom_fields R l (fields_of t).
Proof. reflexivity. Qed.
Lemma dom_map_eq R t n es :
  dom R t (GMap n es) =
  (keys_differ (fst (kv_ty t)) (map fst es) = true /\ forallb keyin (map fst es) = true /\
   dom_entries R (fst (kv_ty t)) (snd (kv_ty t)) es).
Proof. reflexivity. Qed.
Lemma dom_func_eq R t l : dom R t (GFunc (Some l)) = dom_outs R l (outs_of t).
Proof. reflexivity. Qed.

Definition eq_list (e : ty) : list gval -> list gval -> Prop :=
  fix go (l : list gval) (l' : list gval) : Prop :=
    match l, l' with
    | [], [] => True
    | x :: r, x' :: r' => equiv e x x' /\ go r r'
    | _, _ => False
    end.
Definition eq_fields : list gval -> list gval -> list (bytes * bool * ty) -> Prop :=
  fix go (l : list gval) (l' : list gval) (f : list (bytes * bool * ty)) : Prop :=
    match l, l', f with
    | [], [], [] => True
    | x :: r, x' :: r', fd :: fr =>
        (if fexported fd then equiv (snd fd) x x' else x' = zero (snd fd)) /\ go r r' fr
    | _, _, _ => False
    end.
Definition eq_outs : list gval -> list gval -> list ty -> Prop :=
  fix go (l : list gval) (l' : list gval) (ts : list ty) : Prop :=
    match l, l', ts with
    | [], [], _ => True
    | x :: r, x' :: r', xt :: tr => equiv xt x x' /\ go r r' tr
    | _, _, _ => False
    end.
Definition eq_entries_l (kt vt : ty) (es' : list (gval * gval)) : list (gval * gval) -> Prop :=
  fix all (l : list (gval * gval)) : Prop :=
    match l with
    | [] => True
    | (k, x) :: r => (exists e', In e' es' /\ equiv kt k (fst e') /\ equiv vt x (snd e')) /\ all r
    end.
Definition eq_entries_r (kt vt : ty) (e' : gval * gval) : list (gval * gval) -> Prop :=
  fix any (l : list (gval * gval)) : Prop :=
    match l with
    | [] => False
    | (k, x) :: r => (equiv kt k (fst e') /\ equiv vt x (snd e')) \/ any r
    end.

Lemma equiv_list_eq t n l n' l' :
  equiv t (GList n l) (GList n' l') = ((n' = n \/ l = []) /\ eq_list (elem_ty t) l l').
Proof. reflexivity. Qed.
Lemma equiv_struct_eq t l l' : equiv t (GStruct l) (GStruct l') = eq_fields l l' (fields_of t).
Proof. reflexivity. Qed.
Lemma equiv_func_eq t l l' : equiv t (GFunc (Some l)) (GFunc (Some l')) = eq_outs l l' (outs_of t).
Proof. reflexivity. Qed.
Lemma equiv_map_eq t n es n' es' :
  equiv t (GMap n es) (GMap n' es') =
  ((n' = n \/ es = []) /\ length es' = length es /\
   eq_entries_l (fst (kv_ty t)) (snd (kv_ty t)) es' es /\
   Forall (fun e' => eq_entries_r (fst (kv_ty t)) (snd (kv_ty t)) e' es) es').
Proof. reflexivity. Qed.

(* the fuel measure: as [vsize] of Proofs/UnmarshalP.v, and maps, interfaces and funcs counted *)
Fixpoint fsz (v : gval) : nat :=
  match v with
  | GList _ l => S ((fix go (l : list gval) : nat := match l with [] => O | x :: r => (fsz x + go r)%nat end) l)
  | GStruct l => S ((fix go (l : list gval) : nat := match l with [] => O | x :: r => (fsz x + go r)%nat end) l)
  | GFunc (Some l) => S ((fix go (l : list gval) : nat := match l with [] => O | x :: r => (fsz x + go r)%nat end) l)
  | GMap _ es =>
      S ((fix go (l : list (gval * gval)) : nat :=
            match l with [] => O | e :: r => (fsz (fst e) + fsz (snd e) + go r)%nat end) es)
  | GPtr (Some x) => S (fsz x)
  | GAny (Some (_, x)) => S (fsz x)
  | _ => 1%nat
  end.
Definition lsz : list gval -> nat :=
  fix go (l : list gval) : nat := match l with [] => O | x :: r => (fsz x + go r)%nat end.
Definition esz : list (gval * gval) -> nat :=
  fix go (l : list (gval * gval)) : nat :=
    match l with [] => O | e :: r => (fsz (fst e) + fsz (snd e) + go r)%nat end.
Lemma fsz_list n l : fsz (GList n l) = S (lsz l). Proof. reflexivity. Qed.
Lemma fsz_struct l : fsz (GStruct l) = S (lsz l). Proof. reflexivity. Qed.
Lemma fsz_func l : fsz (GFunc (Some l)) = S (lsz l). Proof. reflexivity. Qed.
Lemma fsz_map n es : fsz (GMap n es) = S (esz es). Proof. reflexivity. Qed.
Lemma lsz_cons x l : lsz (x :: l) = (fsz x + lsz l)%nat. Proof. reflexivity. Qed.
Lemma esz_cons e l : esz (e :: l) = (fsz (fst e) + fsz (snd e) + esz l)%nat. Proof. reflexivity. Qed.
Lemma fsz_pos v : (1 <= fsz v)%nat.
Proof. destruct v as [| | | | | | | | | |[x|]|[[t x]|]|[l|]|]; cbn [fsz]; lia. Qed.

Lemma body_head v t b : marshal_body default_opts t v = Ok b ->
  (exists tk r, b = tk :: r /\ head_ok tk /\ is_tn tk = false /\ (kind tk = KNil -> nilish v = true)) \/
  (exists e x, marshal default_opts e x = Ok b /\ fsz v = S (fsz x) /\ nilish v = nilish x).
Proof.
  assert (Hfin : forall tk r (Q : Prop), (kind tk =? KLiteral) || is_end_kind (kind tk) || is_tn tk = false ->
            (kind tk = KNil -> Q) ->
            exists tk' r', tk :: r = tk' :: r' /\ head_ok tk' /\ is_tn tk' = false /\ (kind tk' = KNil -> Q)).
  { intros tk r Q Hk HQ. apply orb_false_iff in Hk. destruct Hk as [Hk Htn]. apply orb_false_iff in Hk.
    exists tk, r. repeat split; try assumption; apply Hk. }
  destruct v as [b0|z|n|b0|b0|s|n s|n l|n es|l|[x|]|[[t' x]|]|[l|]|e];
    cbn [marshal_body ignore_funcs default_opts]; intros H;
    try (right; eexists _, x; repeat split; exact H); left;
    try (apply bind_ok in H; destruct H as (body & _ & H)).
  5: destruct (f64_is_nan b0). 4: destruct (f32_is_nan b0).
  3: destruct (underlying t); try discriminate H; try destruct w.
  2: destruct (underlying t); try discriminate H; destruct w.
  all: injection H as <-; apply Hfin; [reflexivity|intros Hk; try discriminate Hk; reflexivity].
Qed.

(* well-founded induction on [fsz]: the second case of [body_head] goes one pointer or interface down *)
Lemma strip_headF : forall v t ts, marshal default_opts t v = Ok ts ->
  (length (leadl ts) <= fsz v)%nat /\
  exists tk r, strip ts = tk :: r /\ head_ok tk /\ is_tn tk = false /\ (kind tk = KNil -> nilish v = true).
Proof.
  induction v as [v IH] using (well_founded_induction (Wf_nat.well_founded_ltof _ fsz)). intros t ts Hm.
  apply marshal_inv in Hm. destruct Hm as (b & Hb & ->). rewrite strip_prefix, leadl_prefix.
  pose proof (reg_prefix_len t) as Hl.
  destruct (body_head v t b Hb) as [(tk & r & -> & Hh & Htn & Hnil)|(e & x & Hx & Hsz & Hni)].
  - destruct (strip_ntn tk r Htn) as [E1 E2]. rewrite E1, E2, Nat.add_0_r.
    split; [exact (Nat.le_trans _ _ _ Hl (fsz_pos v))|]. exists tk, r. split; [reflexivity|]. split; [exact Hh|]. split; assumption.
  - assert (Hlt : Wf_nat.ltof _ fsz x v) by (unfold Wf_nat.ltof; rewrite Hsz; apply Nat.lt_succ_diag_r).
    rewrite Hsz, Hni. destruct (IH x Hlt e b Hx) as (Hl' & H).
    split; [exact (Nat.add_le_mono _ 1 _ _ Hl Hl')|exact H].
Qed.

Lemma tn_head_ok tk : is_tn tk = true -> head_ok tk.
Proof. unfold is_tn. intros H. apply N.eqb_eq in H. unfold head_ok. rewrite H. split; reflexivity. Qed.

Lemma marshal_headF v t ts : marshal default_opts t v = Ok ts ->
  exists tk r, ts = tk :: r /\ head_ok tk /\ (kind tk = KNil -> nilish v = true).
Proof.
  intros Hm. destruct (strip_headF v t ts Hm) as (_ & tk & r & E & Hh & Htn & Hnil).
  pose proof (leadl_strip ts) as Els. pose proof (leadl_tn ts) as Htns.
  destruct (leadl ts) as [|tk0 l].
  - cbn [app] in Els. exists tk, r. rewrite <- Els, E. repeat split; try apply Hh. exact Hnil.
  - cbn [forallb] in Htns. apply andb_true_iff in Htns. destruct Htns as [H0 _].
    exists tk0, (l ++ strip ts). split; [symmetry; exact Els|]. split; [apply tn_head_ok, H0|].
    intros Hk. unfold is_tn in H0. rewrite Hk in H0. discriminate H0.
Qed.

Lemma ptr_base_underlying t : ptr_base t = ptr_base (underlying t).
Proof. induction t; cbn [ptr_base underlying]; try reflexivity. exact IHt. Qed.

Lemma anyb_underlying t : anyb t = anyb (underlying t).
Proof. unfold anyb. rewrite ptr_base_underlying. reflexivity. Qed.

Lemma ty_ok_underlying t : ty_ok t = true -> ty_ok (underlying t) = true.
Proof.
  induction t; cbn [underlying]; try (intros H; exact H).
  cbn [ty_ok]. intros H. apply andb_true_iff in H. destruct H as [H _]. apply IHt, H.
Qed.

Lemma ty_ok_anyb_prefix t : ty_ok t = true -> anyb t = true -> reg_prefix t = [].
Proof.
  destruct t; try reflexivity. cbn [ty_ok]. intros H Ha.
  apply andb_true_iff in H. destruct H as [_ H]. destruct reg; [|reflexivity].
  change (anyb (TNamed name true depr t)) with (anyb t) in Ha. rewrite Ha in H. discriminate H.
Qed.

Section StepsF.
Variable pf : bytes -> N -> option N.
Variable o : copts.
Variable R : registry.

Lemma unm_skip_tnsF t cur s pre : (anyb t = true -> pre = []) -> forallb is_tn pre = true ->
  forall f, unm pf (length pre + f) o R t cur (pre ++ s) = unm pf f o R t cur s.
Proof.
  intros Hpa. destruct (anyb t) eqn:Ha; [rewrite (Hpa eq_refl); reflexivity|]. clear Hpa.
  assert (Hc : concrete_target t = true) by (rewrite anyb_concrete, Ha; reflexivity).
  induction pre as [|tk pre IH]; intros Hp f; [reflexivity|].
  cbn [forallb] in Hp. apply andb_true_iff in Hp. destruct Hp as [Htk Hp].
  cbn [length app Nat.add]. rewrite (unm_skip pf o R _ t cur tk _ Htk Hc). apply IH, Hp.
Qed.

(* a defined interface type (type X interface{}) behaves as the empty interface itself: one step
   depends on the target type through its underlying type, and through the recursive call on an
   unregistered TypeName *)
Lemma dispatch_named_any rec t cur tk rest : underlying t = TAny -> rec t cur rest = rec TAny cur rest ->
  dispatch o R rec t TAny cur tk rest = dispatch o R rec TAny TAny cur tk rest.
Proof.
  intros Hut Hrec. unfold dispatch, bytes_case, typename_case, rk_of. rewrite Hut, Hrec. reflexivity.
Qed.

Lemma unm_named_any t : underlying t = TAny ->
  forall f cur ts, unm pf f o R t cur ts = unm pf f o R TAny cur ts.
Proof.
  intros Hut. induction f as [|f IH]; intros cur ts; [rewrite !unm_O; reflexivity|].
  rewrite !(unm_S pf f o R). unfold ustep, conv_tok, convert_literal.
  rewrite (ptr_base_underlying t), Hut. destruct ts as [|tk0 rest]; [reflexivity|].
  cbn [underlying ptr_base negb].
  match goal with |- bind ?X _ = bind ?X _ => destruct X as [tk|e|] end; cbn [bind]; [|reflexivity..].
  rewrite andb_false_r. unfold ptr_or_dispatch. rewrite (dispatch_named_any _ t cur tk rest Hut (IH cur rest)). reflexivity.
Qed.

End StepsF.

Lemma lex_app_same p : forall a b, lex (p ++ a) (p ++ b) = lex a b.
Proof. induction p as [|x p IH]; intros a b; cbn [app lex]; [reflexivity|]. rewrite tok_ord_refl. apply IH. Qed.

Lemma Forall2_flip {A B} (P : A -> B -> Prop) l1 l2 : Forall2 P l1 l2 -> Forall2 (fun b a => P a b) l2 l1.
Proof. induction 1; constructor; assumption. Qed.

Lemma Forall2_perm {A B} (Rl : A -> B -> Prop) : forall l2 l2', Permutation l2 l2' ->
  forall l1, Forall2 Rl l1 l2 -> exists l1', Permutation l1 l1' /\ Forall2 Rl l1' l2'.
Proof.
  intros l2 l2' Hp l1 H. destruct (Permutation_Forall2 Hp (Forall2_flip _ _ _ H)) as (l1' & Hp' & H').
  exists l1'. split; [exact Hp'|exact (Forall2_flip _ _ _ H')].
Qed.

Lemma f64_eq_key x y : f64_eq x y = true -> f64_is_nan x = false /\ f64_is_nan y = false /\ f64_key x = f64_key y.
Proof.
  unfold f64_eq. intros H. apply andb_true_iff in H. destruct H as [H H3].
  apply andb_true_iff in H. destruct H as [H1 H2]. apply negb_true_iff in H1, H2. apply Z.eqb_eq in H3.
  repeat split; assumption.
Qed.
Lemma f32_eq_key x y : f32_eq x y = true -> f32_is_nan x = false /\ f32_is_nan y = false /\ f32_key x = f32_key y.
Proof.
  unfold f32_eq. intros H. apply andb_true_iff in H. destruct H as [H H3].
  apply andb_true_iff in H. destruct H as [H1 H2]. apply negb_true_iff in H1, H2. apply Z.eqb_eq in H3.
  repeat split; assumption.
Qed.

Lemma lex_eq_app a1 a2 b1 b2 : lex a1 a2 = Eq -> lex b1 b2 = Eq -> lex (a1 ++ b1) (a2 ++ b2) = Eq.
Proof. rewrite !lex_eq_iff. apply Forall2_app. Qed.

Lemma lex_eq_cons x a b : lex a b = Eq -> lex (x :: a) (x :: b) = Eq.
Proof. intros H. cbn [lex]. rewrite tok_ord_refl. exact H. Qed.

Definition gkeys_eqb : list gval -> list gval -> bool :=
  fix go (p : list gval) (q : list gval) : bool :=
    match p, q with [], [] => true | x :: p', y :: q' => gkey_eqb x y && go p' q' | _, _ => false end.
Lemma gkey_eqb_list n l m k : gkey_eqb (GList n l) (GList m k) = gkeys_eqb l k.
Proof. reflexivity. Qed.
Lemma gkey_eqb_struct l k : gkey_eqb (GStruct l) (GStruct k) = gkeys_eqb l k.
Proof. reflexivity. Qed.

(* two values without interface content that Go's == identifies have key streams that compare Eq
   (+0 and -0 are the only case where the streams are not identical) *)
Definition keyP (a : gval) : Prop :=
  forall b, noany a = true -> gkey_eqb a b = true ->
  forall t sa sb, marshal default_opts t a = Ok sa -> marshal default_opts t b = Ok sb -> lex sa sb = Eq.

Lemma marshal_list_collide e : forall l, Forall keyP l -> forall m, forallb noany l = true -> gkeys_eqb l m = true ->
  forall ba bb, marshal_list default_opts e l = Ok ba -> marshal_list default_opts e m = Ok bb -> lex ba bb = Eq.
Proof.
  induction 1 as [|x l Hx _ IH]; intros [|y m] Hn Hg ba bb Ma Mb; cbn [gkeys_eqb] in Hg; try discriminate Hg.
  - injection Ma as <-. injection Mb as <-. reflexivity.
  - apply andb_true_iff in Hg. destruct Hg as [Hg1 Hg2].
    cbn [forallb] in Hn. apply andb_true_iff in Hn. destruct Hn as [Hn1 Hn2].
    apply marshal_list_cons_ok in Ma. destruct Ma as (a1 & b1 & Ma1 & Mb1 & ->).
    apply marshal_list_cons_ok in Mb. destruct Mb as (a2 & b2 & Ma2 & Mb2 & ->).
    apply lex_eq_app; [exact (Hx y Hn1 Hg1 e a1 a2 Ma1 Ma2)|exact (IH m Hn2 Hg2 b1 b2 Mb1 Mb2)].
Qed.

Lemma marshal_fields_collide : forall l, Forall keyP l -> forall m fs, forallb noany l = true -> gkeys_eqb l m = true ->
  forall ba bb, marshal_fields default_opts l fs = Ok ba -> marshal_fields default_opts m fs = Ok bb -> lex ba bb = Eq.
Proof.
  induction 1 as [|x l Hx _ IH]; intros [|y m] fs Hn Hg ba bb Ma Mb; cbn [gkeys_eqb] in Hg; try discriminate Hg.
  - injection Ma as <-. injection Mb as <-. reflexivity.
  - apply andb_true_iff in Hg. destruct Hg as [Hg1 Hg2].
    cbn [forallb] in Hn. apply andb_true_iff in Hn. destruct Hn as [Hn1 Hn2].
    destruct fs as [|fd fs]; [injection Ma as <-; injection Mb as <-; reflexivity|].
    apply marshal_fields_cons_inv in Ma. apply marshal_fields_cons_inv in Mb. destruct (fexported fd).
    + destruct Ma as (a1 & b1 & Ma1 & Mb1 & ->). destruct Mb as (a2 & b2 & Ma2 & Mb2 & ->).
      apply lex_eq_cons. apply lex_eq_app; [exact (Hx y Hn1 Hg1 _ a1 a2 Ma1 Ma2)|exact (IH m fs Hn2 Hg2 b1 b2 Mb1 Mb2)].
    + exact (IH m fs Hn2 Hg2 ba bb Ma Mb).
Qed.

Lemma lex_one_eq k v1 v2 : val_ord v1 v2 = Eq -> lex [T k v1] [T k v2] = Eq.
Proof. intros H. cbn [lex]. unfold tok_ord. cbn [kind val]. rewrite N.compare_refl, H. reflexivity. Qed.

(* after the common TypeName prefix the two bodies are compared constructor by constructor: equal
   payloads give the same body, floats are compared through their keys, lists and structs
   element by element *)
Theorem key_collision : forall a, keyP a.
Proof.
  assert (Hsame : forall (r : res (list token)) sa sb, r = Ok sa -> r = Ok sb -> lex sa sb = Eq).
  { intros r sa sb -> E. injection E as <-. apply lex_refl. }
  induction a as [b1|z1|n1|b1|b1|x1|n1 x1|n1 l1 IH|n1 es1 IH|l1 IH| |y1 IH| |t1 y1 IH| |l1 IH|x1] using gval_ind3;
    intros b Hna Hg t sa sb M1 M2; try discriminate Hna;
    apply marshal_inv in M1; destruct M1 as (ba & M1 & ->); apply marshal_inv in M2; destruct M2 as (bb & M2 & ->);
    rewrite lex_app_same; cbn [gkey_eqb] in Hg;
    destruct b as [b2|z2|n2|b2|b2|x2|n2 x2|n2 l2|n2 es2|l2|[y2|]|[[t2 y2]|]|[l2|]|x2]; try discriminate Hg;
    cbn [marshal_body] in M1, M2.
  - apply eqb_prop in Hg. subst b2. exact (Hsame _ _ _ M1 M2).
  - apply Z.eqb_eq in Hg. subst z2. exact (Hsame _ _ _ M1 M2).
  - apply N.eqb_eq in Hg. subst n2. exact (Hsame _ _ _ M1 M2).
  - apply f32_eq_key in Hg. destruct Hg as (Hn1 & Hn2 & Hkey). rewrite Hn1 in M1. rewrite Hn2 in M2.
    injection M1 as <-. injection M2 as <-. apply lex_one_eq. cbn [val_ord]. rewrite Hkey. apply Z.compare_refl.
  - apply f64_eq_key in Hg. destruct Hg as (Hn1 & Hn2 & Hkey). rewrite Hn1 in M1. rewrite Hn2 in M2.
    injection M1 as <-. injection M2 as <-. apply lex_one_eq. cbn [val_ord]. rewrite Hkey. apply Z.compare_refl.
  - apply bytes_eqb_true in Hg. subst x2. exact (Hsame _ _ _ M1 M2).
  - (* bytes: the nil flag is not on the wire *)
    apply bytes_eqb_true in Hg. subst x2. exact (Hsame _ _ _ M1 M2).
  - change (gkeys_eqb l1 l2 = true) in Hg. cbn [noany] in Hna.
    apply bind_ok in M1. destruct M1 as (ea & M1 & E1). injection E1 as <-.
    apply bind_ok in M2. destruct M2 as (eb & M2 & E2). injection E2 as <-.
    apply lex_eq_cons, lex_eq_app; [|reflexivity]. exact (marshal_list_collide _ l1 IH l2 Hna Hg ea eb M1 M2).
  - change (gkeys_eqb l1 l2 = true) in Hg. cbn [noany] in Hna.
    apply bind_ok in M1. destruct M1 as (ea & M1 & E1). injection E1 as <-.
    apply bind_ok in M2. destruct M2 as (eb & M2 & E2). injection E2 as <-.
    apply lex_eq_cons, lex_eq_app; [|reflexivity]. exact (marshal_fields_collide l1 IH l2 _ Hna Hg ea eb M1 M2).
  - exact (Hsame _ _ _ M1 M2).
  - exact (Hsame _ _ _ M1 M2).
  - apply bytes_eqb_true in Hg. subst x2. exact (Hsame _ _ _ M1 M2).
Qed.

Lemma forallb_repeat {A} (f : A -> bool) x n : f x = true -> forallb f (repeat x n) = true.
Proof. intros H. induction n as [|n IH]; cbn [repeat forallb]; [reflexivity|]. rewrite H, IH. reflexivity. Qed.

Lemma noany_zero : forall t, noany (zero t) = true.
Proof.
  induction t as [| | | | | | | | |n e IH|e IH|k v IHk IHv|fs IH|e IH| |outs IH|n r d u IH|] using ty_ind2;
    cbn [zero noany]; try reflexivity; try assumption.
  - apply forallb_repeat, IH.
  - induction IH as [|f fs Hf _ IHfs]; cbn [map forallb]; [reflexivity|]. rewrite Hf, IHfs. reflexivity.
Qed.

Theorem noany_equiv : forall v t v', noany v = true -> equiv t v v' -> noany v' = true.
Proof.
  induction v as [b|z|n|b|b|s|n s|n l IH|n es IH|l IH| |x IH| |t0 x IH| |l IH|e] using gval_ind3;
    intros t v' Hn He; try discriminate Hn;
    try (cbn [equiv] in He; subst v'; reflexivity);
    try (cbn [equiv] in He; destruct v'; try contradiction; reflexivity).
  - (* list *)
    destruct v' as [| | | | | | |n' l'| | | | | |]; try contradiction.
    rewrite equiv_list_eq in He. destruct He as [_ He]. cbn [noany] in Hn |- *.
    revert l' He. induction IH as [|x l Hx _ IHl]; intros [|x' l'] He; cbn [eq_list] in He; try contradiction;
      [reflexivity|].
    cbn [forallb] in Hn |- *. apply andb_true_iff in Hn. destruct Hn as [Hn1 Hn2]. destruct He as [He1 He2].
    rewrite (Hx _ _ Hn1 He1), (IHl Hn2 _ He2). reflexivity.
  - (* map *)
    destruct v' as [| | | | | | | |n' es'| | | | |]; try contradiction.
    rewrite equiv_map_eq in He. destruct He as (_ & _ & _ & Hr). cbn [noany] in Hn |- *.
    apply forallb_forall. intros e' Hin. rewrite Forall_forall in Hr. specialize (Hr e' Hin).
    clear Hin. induction IH as [|[k x] es [Hk Hx] _ IHes]; cbn [eq_entries_r] in Hr; [contradiction|].
    cbn [forallb fst snd] in Hn. apply andb_true_iff in Hn. destruct Hn as [Hn1 Hn2].
    apply andb_true_iff in Hn1. destruct Hn1 as [Hnk Hnx]. cbn [fst snd] in Hk, Hx.
    destruct Hr as [[Hek Hex]|Hr]; [|exact (IHes Hn2 Hr)].
    rewrite (Hk _ _ Hnk Hek), (Hx _ _ Hnx Hex). reflexivity.
  - (* struct *)
    destruct v' as [| | | | | | | | |l'| | | |]; try contradiction.
    rewrite equiv_struct_eq in He. cbn [noany] in Hn |- *.
    revert l' He. generalize (fields_of t). induction IH as [|x l Hx _ IHl]; intros fs [|x' l'] He;
      destruct fs as [|fd fs]; cbn [eq_fields] in He; try contradiction; [reflexivity|].
    cbn [forallb] in Hn |- *. apply andb_true_iff in Hn. destruct Hn as [Hn1 Hn2]. destruct He as [He1 He2].
    rewrite (IHl Hn2 fs _ He2), andb_true_r.
    destruct (fexported fd); [exact (Hx _ _ Hn1 He1)|subst x'; apply noany_zero].
  - (* pointer *)
    cbn [equiv] in He. destruct v' as [| | | | | | | | | |[x'|]| | |]; try contradiction.
    cbn [noany] in Hn |- *. exact (IH _ _ Hn He).
  - cbn [equiv] in He. destruct He as [->| ->]; reflexivity.
  - (* func *)
    destruct v' as [| | | | | | | | | | | |[l'|]|]; try contradiction; [|reflexivity].
    rewrite equiv_func_eq in He. cbn [noany] in Hn |- *.
    revert l' He. generalize (outs_of t). induction IH as [|x l Hx _ IHl]; intros ots [|x' l'] He;
      cbn [eq_outs] in He; try contradiction; [reflexivity|]. destruct ots as [|ot ots]; [contradiction|].
    cbn [forallb] in Hn |- *. apply andb_true_iff in Hn. destruct Hn as [Hn1 Hn2]. destruct He as [He1 He2].
    rewrite (Hx _ _ Hn1 He1), (IHl Hn2 ots _ He2). reflexivity.
Qed.

Lemma forallb_impl {A} (f g : A -> bool) l :
  Forall (fun x => f x = true -> g x = true) l -> forallb f l = true -> forallb g l = true.
Proof.
  induction 1 as [|x l Hx _ IH]; [reflexivity|]. cbn [forallb]. intros H.
  apply andb_true_iff in H. destruct H as [H1 H2]. rewrite (Hx H1), (IH H2). reflexivity.
Qed.

Lemma noany_comparable : forall v, noany v = true -> comparable_val v = true.
Proof.
  induction v as [b|z|n|b|b|s|n s|n l IH|n es IH|l IH| |x IH| |t0 x IH| |l IH|e] using gval_ind3;
    intros Hn; try reflexivity; try discriminate Hn; exact (forallb_impl _ _ _ IH Hn).
Qed.

Lemma noany_wf_dyn : forall v, noany v = true -> wf_dyn v = true.
Proof.
  induction v as [b|z|n|b|b|s|n s|n l IH|n es IH|l IH| |x IH| |t0 x IH| |l IH|e] using gval_ind3;
    intros Hn; try reflexivity; try discriminate Hn; try exact (forallb_impl _ _ _ IH Hn); [|exact (IH Hn)].
  refine (forallb_impl _ _ _ (Forall_impl _ _ IH) Hn). intros [k x] [Hk Hx] H. cbn [fst snd] in Hk, Hx.
  change (noany k && noany x = true) in H. change (wf_dyn k && wf_dyn x = true).
  apply andb_true_iff in H. destruct H as [H1 H2]. rewrite (Hk H1), (Hx H2). reflexivity.
Qed.

Lemma leaf_noany v : is_leafv v = true -> noany v = true.
Proof. destruct v as [| | | | | | | | | |[y|]|[[t' y]|]|[l|]|]; intros H; try discriminate H; reflexivity. Qed.

(* the dynamic types a decoded interface key can have *)
Definition basic_ty (st : ty) : bool :=
  match st with TBool | TInt _ | TUint _ | TUintptr | TF32 | TF64 | TString | TByteArray _ => true | _ => false end.

Lemma keyable_any st sv : keyable (GAny (Some (st, sv))) = true -> basic_ty st = true /\ is_leafv sv = true.
Proof. cbn [keyable]. destruct st; intros H; try discriminate H; (split; [reflexivity|exact H]). Qed.

Lemma basic_ty_eqb st tb : basic_ty st = true -> ty_eqb st tb = true -> tb = st.
Proof.
  destruct st; intros Hb; try discriminate Hb; cbn [ty_eqb]; destruct tb; intros H; try discriminate H;
    try reflexivity; f_equal; symmetry; first [apply width_eqb_true, H | apply Nat.eqb_eq, H].
Qed.

Theorem key_collision2 a b : keyable a = true -> gkey_eqb a b = true ->
  forall t sa sb, marshal default_opts t a = Ok sa -> marshal default_opts t b = Ok sb -> lex sa sb = Eq.
Proof.
  intros Hk Hg t sa sb M1 M2.
  destruct a as [| | | | | | | | | | |[[st sv]|]| |]; try exact (key_collision _ b Hk Hg t sa sb M1 M2).
  destruct (keyable_any st sv Hk) as [Hb Hl]. cbn [gkey_eqb] in Hg.
  destruct b as [| | | | | | | | | | |[[tb xb]|]| |]; try discriminate Hg.
  apply andb_true_iff in Hg. destruct Hg as [Hty Hg]. pose proof (basic_ty_eqb st tb Hb Hty) as ->.
  cbn [marshal] in M1, M2.
  apply bind_ok in M1. destruct M1 as (s1 & M1 & E1). injection E1 as <-.
  apply bind_ok in M2. destruct M2 as (s2 & M2 & E2). injection E2 as <-.
  rewrite lex_app_same. exact (key_collision sv xb (leaf_noany sv Hl) Hg st s1 s2 M1 M2).
Qed.

Lemma keyable_comparable a : keyable a = true -> comparable_val a = true.
Proof.
  intros Hk. destruct a as [| | | | | | | | | | |[[st sv]|]| |]; try exact (noany_comparable _ Hk).
  destruct (keyable_any st sv Hk) as [Hb Hl]. cbn [comparable_val].
  rewrite (noany_comparable sv (leaf_noany sv Hl)), andb_true_r. destruct st; try discriminate Hb; reflexivity.
Qed.

Lemma keyin_wf_dyn v : keyin v = true -> wf_dyn v = true.
Proof.
  intros Hk. destruct v as [| | | | | | | | | | |[[t' x]|]| |]; try exact (noany_wf_dyn _ Hk).
  cbn [keyin] in Hk. apply andb_true_iff in Hk. destruct Hk as [Hk _]. exact Hk.
Qed.

Lemma Inv_intro t v v' ts :
  match v with GAny (Some _) => False | _ => True end ->
  equiv t v v' -> marshal default_opts t v' = Ok ts -> Inv t v v' ts.
Proof.
  intros Hna He Hm. split; [exact He|]. split; [exact Hm|]. intros Hk.
  assert (Hn : noany v = true) by (destruct v as [| | | | | | | | | | |[[t' x]|]| |]; try exact Hk; contradiction).
  pose proof (noany_equiv v t v' Hn He) as Hn'.
  destruct v' as [| | | | | | | | | | |[[st sv]|]| |]; try exact Hn'. discriminate Hn'.
Qed.

Lemma tc_noany v : noany v = true -> to_comparable v = v.
Proof. destruct v as [| | | | | | | | | | |[[st sv]|]| |]; intros H; try reflexivity. discriminate H. Qed.

Lemma equiv_tc t k k' : equiv t k k' -> equiv t k (to_comparable k').
Proof.
  intros He.
  destruct k' as [| | | | | | | | | | |[[st sv]|]| |]; try exact He.
  destruct st; try exact He. destruct sv as [| | | | | |n s| | | | | | |]; try exact He.
  destruct k as [| | | | | | | | | |[y|]|[d|]|[l|]|]; cbn [equiv] in He |- *; try contradiction; try discriminate He.
  - cbn [to_comparable]. rewrite He. reflexivity.
  - destruct He as [He|He]; discriminate He.
Qed.

(* on a typed key of the domain the key stored by the typed map loop is toComparable of the
   decoded key: converted under an interface key type, untouched (and unconvertible) otherwise *)
Lemma iface_key_tc kt k k' : has_type kt k = true -> keyin k = true -> equiv kt k k' ->
  iface_key kt k' = to_comparable k'.
Proof.
  intros Ht Hk He. unfold iface_key.
  assert (Hn : noany k = true \/ underlying kt = TAny).
  { destruct k as [| | | | | | | | | | |[[t0 x0]|]| |]; try (left; exact Hk).
    right. cbn [has_type] in Ht. destruct (underlying kt); try discriminate Ht; reflexivity. }
  destruct Hn as [Hn|Hut]; [|rewrite Hut; reflexivity].
  rewrite (tc_noany k' (noany_equiv k kt k' Hn He)). destruct (underlying kt); reflexivity.
Qed.

Lemma keyin_dec t' x w : keyin (GAny (Some (t', x))) = true ->
  marshal default_opts t' x = Ok (flatten w) -> any_okb w = true -> keyable (to_comparable (dec w)) = true.
Proof.
  intros Hk Hm Hw. cbn [keyin] in Hk. apply andb_true_iff in Hk. destruct Hk as [_ Hk]. rewrite Hm in Hk.
  destruct w as [tok|ko kc items|n w].
  - cbn [flatten] in Hk. cbn [any_okb] in Hw.
    destruct (leaf_ok_view tok Hw) as [| |b|w z|w n|n|b Hb|b Hb|s|s]; cbn [any_of_token val] in Hk;
      try discriminate Hk; try reflexivity; destruct w; reflexivity.
  - exfalso. cbn [flatten] in Hk. destruct (flat_map flatten items); cbn [app] in Hk; discriminate Hk.
  - discriminate Hw.
Qed.

Lemma marshal_not_single_tn t x n : marshal default_opts t x = Ok [T KTypeName (VStr n)] -> False.
Proof.
  intros Hm. destruct (strip_headF x t _ Hm) as (_ & tk & r & E & _). cbn in E. discriminate E.
Qed.

(* what an entry triple ([MarshalP.entry_rel]) puts on the wire; under the default options the key
   stream is the sort key *)
Definition fe (e : entry) : list token := snd (fst e) ++ snd e.

Lemma streams_differ_ne kt k1 k2 s1 s2 : streams_differ kt k1 k2 = true ->
  marshal default_opts kt k1 = Ok s1 -> marshal default_opts kt k2 = Ok s2 -> lex s1 s2 <> Eq.
Proof. unfold streams_differ. intros H M1 M2. rewrite M1, M2 in H. destruct (lex s1 s2); [discriminate H| |]; discriminate. Qed.

Lemma keys_differ_distinct kt : forall es, keys_differ kt (map fst es) = true -> keys_distinct kt es.
Proof.
  induction es as [|p es IH]; intros Hd; [constructor|].
  cbn [map keys_differ] in Hd. apply andb_true_iff in Hd. destruct Hd as [Hd1 Hd2].
  constructor; [|apply IH, Hd2]. rewrite forallb_forall in Hd1. apply Forall_forall. intros q Hq s1 s2.
  exact (streams_differ_ne kt _ _ s1 s2 (Hd1 _ (in_map fst _ _ Hq))).
Qed.

Lemma sorted_entries kt vt es es0 : wf_ty kt = true -> forallb keyin (map fst es) = true ->
  Forall (fun p => has_type kt (fst p) = true) es -> keys_differ kt (map fst es) = true ->
  Forall2 (entry_rel default_opts kt vt) es es0 ->
  StronglySorted ent_lt (sort_entries es0) /\ Forall wf_sk (sort_entries es0).
Proof.
  intros Hwf Hk Hty Hd H2.
  assert (Hw : Forall wf_sk es0).
  { clear Hd. induction H2 as [|p e es es0 [M1 _] Hr IH]; [constructor|].
    inversion Hty as [|? ? Hp Htr]; subst.
    cbn [map forallb] in Hk. apply andb_true_iff in Hk. destruct Hk as [Hk1 Hk2].
    constructor; [|apply IH; assumption].
    exact (marshal_tokens_wf default_opts kt (fst p) _ Hwf Hp (keyin_wf_dyn _ Hk1) M1). }
  split; [|exact (Permutation_Forall (Permutation_sym (sort_entries_perm es0)) Hw)].
  exact (sort_entries_strict es0 Hw (keys_distinct_entries _ _ _ _ _ H2 (keys_differ_distinct kt es Hd))).
Qed.

Lemma eq_list_length e : forall l l', eq_list e l l' -> length l' = length l.
Proof.
  induction l as [|x l IH]; intros [|x' l'] H; cbn [eq_list] in H; try contradiction; [reflexivity|].
  destruct H as [_ H]. cbn [length]. f_equal. apply IH, H.
Qed.

Lemma dom_list_Forall R e : forall l, dom_list R e l -> Forall (dom R e) l.
Proof. induction l as [|x l IH]; intros H; constructor; [apply H|apply IH, H]. Qed.

Lemma read_as_Inv e : forall l l', Forall2 (read_as default_opts Inv e) l l' ->
  eq_list e l l' /\ marshal_list default_opts e l' = marshal_list default_opts e l.
Proof.
  induction 1 as [|x y l l' (a & Ha & He & Hm & _) _ [IH1 IH2]]; [split; reflexivity|].
  split; [split; assumption|]. rewrite !marshal_list_cons, Ha, Hm, IH2. reflexivity.
Qed.

Section LoopsF.
Variable o : copts.
Variable R : registry.
Variable rec : rec_t.

(* what the recursive call does on the stream of a typed element of the domain, provided the
   stream is not longer than L *)
Definition elemF : nat -> gval -> Prop := reads default_opts rec ty_ok (dom R) Inv.

Lemma tuple_loop_F L : forall l, Forall (elemF L) l ->
  forall outs body, forallb wf_ty outs = true -> forallb ty_ok outs = true ->
  typed_outs l outs = true -> dom_outs R l outs ->
  marshal_outs default_opts l outs = Ok body -> (length body <= L)%nat ->
  forall g tys vals rest, (length body < g)%nat ->
  exists l', tuple_loop rec g outs tys vals (body ++ T KTupleEnd VNone :: rest)
             = Ok ([], vals ++ l', tys ++ outs, rest) /\
             eq_outs l l' outs /\ marshal_outs default_opts l' outs = Ok body /\ length l' = length outs.
Proof.
  induction 1 as [|x l Hx _ IH]; intros outs body Hwf Hok Hty Hd Hm HL g tys vals rest Hg.
  - destruct outs as [|ot outs]; [|discriminate Hty]. injection Hm as <-.
    destruct g as [|g]; [clear - Hg; cbn in Hg; lia|]. exists [].
    cbn [app]. rewrite !app_nil_r. repeat split.
  - destruct outs as [|ot outs]; [discriminate Hty|].
    rewrite typed_outs_cons in Hty.
    apply andb_true_iff in Hty. destruct Hty as [Htx Htl].
    cbn [forallb] in Hwf, Hok.
    apply andb_true_iff in Hwf. destruct Hwf as [Hwx Hwl]. apply andb_true_iff in Hok. destruct Hok as [Hox Hol].
    destruct Hd as [Hdx Hdl].
    rewrite marshal_outs_cons in Hm. apply bind_ok in Hm. destruct Hm as (a & Ha & Hm).
    apply bind_ok in Hm. destruct Hm as (b & Hb & Hm). injection Hm as <-. rewrite app_length in HL, Hg.
    destruct (Hx ot a (b ++ T KTupleEnd VNone :: rest) Hwx Hox Htx Hdx Ha ltac:(clear - HL; lia))
      as ((tk & r & -> & Hh) & x' & Hrx & Hex & Hmx & _).
    destruct g as [|g]; [clear - Hg; cbn [length] in Hg; lia|]. rewrite <- app_assoc. cbn [app] in Hrx |- *.
    destruct (end_kind_false _ (proj2 Hh)) as (_ & _ & _ & Hne).
    rewrite (tuple_loop_step rec g _ tys vals _ tk _ eq_refl Hne), Hrx. cbn [bind fst snd].
    destruct (IH outs b Hwl Hol Htl Hdl Hb ltac:(clear - HL; lia) g (tys ++ [ot]) (vals ++ [x']) rest
                ltac:(clear - Hg; cbn [length] in Hg; lia)) as (l' & Hloop & Hel & Hml & Hlen).
    exists (x' :: l'). rewrite Hloop, <- !app_assoc. split; [reflexivity|]. split; [split; assumption|].
    split; [|cbn [length]; rewrite Hlen; reflexivity].
    rewrite marshal_outs_cons, Hmx. cbn [bind]. rewrite Hml. reflexivity.
Qed.

Hypothesis Hname : forall s cur rest', rec TString cur (T KString (VStr s) :: rest') = Ok (GStr s, rest').

Lemma struct_loop_F L : forall l, Forall (elemF L) l ->
  forall fsall pre fs donev body, fsall = pre ++ fs -> names_nodup fsall = true ->
  forallb (fun f => wf_bytesb (fname f) && wf_ty (snd f)) fs = true ->
  forallb (fun f => ty_ok (snd f)) fs = true ->
  typed_fields l fs = true -> dom_fields R l fs ->
  marshal_fields default_opts l fs = Ok body -> (length body <= L)%nat -> length donev = length pre ->
  forall g depr rest, (length body < g)%nat ->
  exists l', struct_loop o rec g fsall depr (donev ++ map (fun fd => zero (snd fd)) fs)
               (body ++ T KObjectEnd VNone :: rest) = Ok (donev ++ l', rest) /\
             eq_fields l l' fs /\ marshal_fields default_opts l' fs = Ok body.
Proof.
  induction 1 as [|x l Hx _ IH]; intros fsall pre fs donev body Hall Hnd Hwf Hok Hty Hd Hm HL Hlen g depr rest Hg.
  - destruct fs as [|fd fs]; [|discriminate Hty]. injection Hm as <-.
    destruct g as [|g]; [clear - Hg; cbn in Hg; lia|]. exists []. repeat split.
  - destruct fs as [|fd fs]; [discriminate Hty|].
    rewrite typed_fields_cons in Hty.
    apply andb_true_iff in Hty. destruct Hty as [Htx Htl].
    cbn [forallb] in Hwf, Hok.
    apply andb_true_iff in Hwf. destruct Hwf as [Hwx Hwl]. apply andb_true_iff in Hwx. destruct Hwx as [_ Hwx].
    apply andb_true_iff in Hok. destruct Hok as [Hox Hol].
    destruct Hd as [Hdx Hdl].
    apply marshal_fields_cons_inv in Hm.
    (* the rest of the fields, once this one holds y *)
    assert (Hnext : forall y body' g', marshal_fields default_opts l fs = Ok body' -> (length body' <= L)%nat ->
              (length body' < g')%nat ->
              exists l', struct_loop o rec g' fsall depr (donev ++ y :: map (fun fd => zero (snd fd)) fs)
                (body' ++ T KObjectEnd VNone :: rest) = Ok (donev ++ y :: l', rest) /\
                eq_fields l l' fs /\ marshal_fields default_opts l' fs = Ok body').
    { intros y body' g' Hb HL' Hg'.
      destruct (IH fsall (pre ++ [fd]) fs (donev ++ [y]) body') with (g := g') (depr := depr) (rest := rest)
        as (l' & Hloop & H); try assumption.
      - rewrite <- app_assoc. exact Hall.
      - rewrite !app_length, Hlen. reflexivity.
      - rewrite <- !app_assoc in Hloop. exists l'. split; assumption. }
    cbn [map]. destruct (fexported fd) eqn:Hex.
    + destruct Hm as (a & b & Ha & Hb & ->). cbn [length] in HL, Hg. rewrite app_length in HL, Hg.
      destruct (Hx (snd fd) a (b ++ T KObjectEnd VNone :: rest) Hwx Hox Htx (Hdx eq_refl) Ha
                  ltac:(clear - HL; lia)) as (_ & x' & Hrx & Hex' & Hmx & _).
      destruct g as [|g]; [clear - Hg; lia|]. cbn [app].
      rewrite (struct_loop_step o rec g fsall depr _ _ (T KString (VStr (fname fd))) _ eq_refl eq_refl), Hname. cbn [bind fst snd].
      subst fsall. rewrite (find_field_at pre fd fs 0 Hnd Hex). cbn [Nat.add]. rewrite <- Hlen, nth_app_here, <- app_assoc.
      rewrite Hrx. cbn [bind fst snd]. rewrite set_nth_app.
      destruct (Hnext x' b g Hb ltac:(clear - HL; lia) ltac:(clear - Hg; cbn [length] in Hg; lia)) as (l' & Hloop & Hel & Hml).
      exists (x' :: l'). rewrite Hloop, marshal_fields_cons, Hex, Hmx. cbn [skip_empty default_opts andb negb bind eq_fields]. rewrite Hml, Hex.
      repeat split; assumption.
    + destruct (Hnext (zero (snd fd)) body g Hm HL Hg) as (l' & Hloop & Hel & Hml).
      exists (zero (snd fd) :: l'). rewrite Hloop, marshal_fields_cons, Hex. cbn [skip_empty default_opts andb negb eq_fields]. rewrite Hex.
      repeat split; assumption.
Qed.

(* map entries come in the order of the sorted entry triples: the keys already stored are below
   all that follow *)
Definition below_all (kt : ty) (S : list entry) (q : gval * gval) : Prop :=
  exists s0, keyable (fst q) = true /\ marshal default_opts kt (fst q) = Ok s0 /\
             Forall (fun e => lex s0 (sk e) = Lt) S.

Lemma map_loop_F L kt vt : wf_ty kt = true -> ty_ok kt = true ->
  wf_ty vt = true -> ty_ok vt = true ->
  forall esP S, Forall2 (entry_rel default_opts kt vt) esP S ->
  Forall (fun p => elemF L (fst p) /\ elemF L (snd p)) esP ->
  Forall (fun p => (has_type kt (fst p) = true /\ dom R kt (fst p) /\ keyin (fst p) = true) /\
                   has_type vt (snd p) = true /\ dom R vt (snd p)) esP ->
  StronglySorted ent_lt S ->
  (length (flat_map fe S) <= L)%nat ->
  forall g isnil m rest, (length (flat_map fe S) < g)%nat -> Forall (below_all kt S) m ->
  exists D, map_loop rec g kt vt isnil m (flat_map fe S ++ T KMapEnd VNone :: rest)
            = Ok (GMap (isnil && match S with [] => true | _ => false end) (m ++ D), rest) /\
            Forall2 (fun p q => equiv kt (fst p) (fst q) /\ equiv vt (snd p) (snd q)) esP D /\
            Forall2 (entry_rel default_opts kt vt) D S.
Proof.
  intros Hwk Hok Hwv Hov.
  induction 1 as [|p e esP S Hpe H2 IH]; intros Hel Hty Hs HL g isnil m rest Hg Hm.
  - destruct g as [|g]; [clear - Hg; cbn in Hg; lia|]. exists [].
    cbn [flat_map app]. rewrite app_nil_r, andb_true_r. repeat split; constructor.
  - inversion Hel as [|? ? [Hek Hex] Helr]; subst.
    inversion Hty as [|? ? ((Htk & Hdk & Hnk) & Htx & Hdx) Htyr]; subst.
    apply StronglySorted_inv in Hs. destruct Hs as [Hsr Her].
    destruct p as [k x]. destruct e as [[s kts] vts]. destruct Hpe as (Mk & Mk' & Mx).
    cbn [fst snd] in *. rewrite Mk in Mk'. injection Mk' as <-.
    cbn [flat_map] in HL, Hg |- *. unfold fe at 1 in HL. unfold fe at 1 in Hg. unfold fe at 1. cbn [fst snd] in HL, Hg |- *.
    rewrite !app_length in HL, Hg. rewrite <- !app_assoc.
    destruct (Hek kt s (vts ++ flat_map fe S ++ T KMapEnd VNone :: rest) Hwk Hok Htk Hdk Mk
                ltac:(clear - HL; lia)) as ((tk & r & -> & Hh) & k' & Hrk & Heqk & Hmk & Hkk).
    destruct g as [|g]; [clear - Hg; lia|]. cbn [app] in Hrk |- *.
    destruct (end_kind_false _ (proj2 Hh)) as (_ & _ & Hne & _).
    rewrite (map_loop_step rec g kt vt isnil m _ tk _ eq_refl Hne), Hrk. cbn [bind fst snd].
    rewrite (iface_key_tc kt k k' Htk Hnk Heqk).
    pose proof (Hkk Hnk) as Hnk'.
    apply equiv_tc in Heqk. rewrite <- (tc_marshal default_opts kt k') in Hmk.
    remember (to_comparable k') as k'' eqn:Ek''. clear Ek'' Hrk k'. rename k'' into k'.
    rewrite (keyable_comparable k' Hnk'). cbn [negb].
    destruct (Hex vt vts (flat_map fe S ++ T KMapEnd VNone :: rest) Hwv Hov Htx Hdx Mx ltac:(clear - HL; lia))
      as (_ & x' & Hrx & Heqx & Hmx & _).
    rewrite Hrx. cbn [bind fst snd].
    assert (Hfresh : Forall (fun q => gkey_eqb (fst q) k' = false) m).
    { rewrite Forall_forall in Hm |- *. intros q Hq. destruct (Hm q Hq) as (s0 & N0 & M0 & Hlt).
      destruct (gkey_eqb (fst q) k') eqn:Eg; [|reflexivity]. exfalso.
      pose proof (key_collision2 (fst q) k' N0 Eg kt s0 _ M0 Hmk) as Heq.
      inversion Hlt as [|? ? Hlt1 _]; subst. unfold sk in Hlt1. cbn [fst] in Hlt1. rewrite Heq in Hlt1.
      discriminate Hlt1. }
    rewrite (map_set_fresh k' x' m Hfresh).
    destruct (IH Helr Htyr Hsr ltac:(clear - HL; lia) g false (m ++ [(k', x')]) rest
                ltac:(clear - Hg; cbn [length] in Hg; lia)) as (D & Hloop & HD & HmD).
    { apply Forall_app. split.
      - rewrite Forall_forall in Hm |- *. intros q Hq. destruct (Hm q Hq) as (s0 & N0 & M0 & Hlt).
        exists s0. repeat split; try assumption. inversion Hlt; assumption.
      - constructor; [|constructor]. exists (tk :: r). cbn [fst]. repeat split; assumption. }
    exists ((k', x') :: D). rewrite Hloop. rewrite andb_false_r, <- app_assoc. cbn [andb app].
    split; [reflexivity|]. split; constructor; try assumption; repeat split; assumption.
Qed.

End LoopsF.

Lemma simple_of_underlying t : simple_ty (underlying t) = simple_ty t.
Proof. induction t; cbn [underlying simple_ty]; try reflexivity. exact IHt. Qed.

Lemma leaf_simple t v : is_leafv v = true -> has_type t v = true -> simple_ty t = true.
Proof.
  intros L H. rewrite <- simple_of_underlying.
  destruct v as [| | | | | | | | | |[y|]|[[t' y]|]|[l|]|]; try discriminate L; cbn [has_type] in H;
    destruct (underlying t); try discriminate H; reflexivity.
Qed.

Lemma simple_anyb t : simple_ty t = true -> anyb t = false.
Proof. intros H. unfold anyb. apply simple_ptr_base, H. Qed.

Lemma leaf_vsize v : is_leafv v = true -> vsize v = 1%nat /\ fsz v = 1%nat /\ no_ptr_to_nil v = true.
Proof. destruct v as [| | | | | | | | | |[y|]|[[t' y]|]|[l|]|]; intros L; try discriminate L; repeat split. Qed.

(* the typing of a nil flag: a nil slice, byte slice or map is empty *)
Lemma nilflag {A} (n : bool) (l : list A) :
  negb n || match l with [] => true | _ => false end = true -> false = n \/ l = [].
Proof. destruct n; [|left; reflexivity]. destruct l; [right; reflexivity|discriminate]. Qed.

Lemma leaf_equiv t v : is_leafv v = true -> has_type t v = true -> equiv t v (normal t v).
Proof.
  intros L H.
  destruct v as [b|z|n|b|b|s|n s| | | |[y|]|[[t' y]|]|[l|]|e]; try discriminate L; cbn [normal equiv];
    try reflexivity.
  - destruct (f32_is_nan b) eqn:E; [right; split; reflexivity|left; reflexivity].
  - destruct (f64_is_nan b) eqn:E; [right; split; reflexivity|left; reflexivity].
  - split; [reflexivity|]. cbn [has_type] in H. destruct (underlying t); try discriminate H.
    + apply andb_true_iff in H. exact (nilflag n s (proj2 H)).
    + apply andb_true_iff in H. destruct H as [_ H]. left. apply negb_true_iff in H. symmetry. exact H.
Qed.

Lemma leaf_inv2 t v ts : is_leafv v = true -> has_type t v = true -> marshal default_opts t v = Ok ts ->
  equiv t v (normal t v) /\ marshal default_opts t (normal t v) = Ok ts.
Proof.
  intros L H Hm. split; [exact (leaf_equiv t v L H)|].
  destruct v as [b|z|n|b|b|s|n s| | | |[y|]|[[t' y]|]|[l|]|e]; try discriminate L; try exact Hm; cbn [normal marshal] in Hm |- *.
  - destruct (f32_is_nan b) eqn:E; [exact Hm|]. cbn [marshal]. rewrite E. exact Hm.
  - destruct (f64_is_nan b) eqn:E; [exact Hm|]. cbn [marshal]. rewrite E. exact Hm.
Qed.

Lemma leaf_inv t v ts : is_leafv v = true -> has_type t v = true -> marshal default_opts t v = Ok ts ->
  Inv t v (normal t v) ts.
Proof.
  intros L H Hm. destruct (leaf_inv2 t v ts L H Hm) as [He Hm'].
  apply Inv_intro; [|exact He|exact Hm'].
  destruct v as [| | | | | | | | | | |[[t' y]|]| |]; try exact I. discriminate L.
Qed.

Lemma dec_is_any w : exists d, dec w = GAny d.
Proof.
  induction w as [t|ko kc items _|n w IH] using value_ind2.
  - cbn [dec]. unfold leaf_gval. destruct (kind t =? KNil); [eexists; reflexivity|].
    destruct (kind t =? KNaN); eexists; reflexivity.
  - cbn [dec]. destruct (ko =? KArray); [eexists; reflexivity|]. destruct (ko =? KObject); [eexists; reflexivity|].
    destruct (ko =? KMap); eexists; reflexivity.
  - exact IH.
Qed.

Lemma Forall2_len {A B} (P : A -> B -> Prop) : forall l1 l2, Forall2 P l1 l2 -> length l1 = length l2.
Proof. induction 1 as [|x y l1 l2 _ _ IH]; [reflexivity|]. cbn [length]. rewrite IH. reflexivity. Qed.

Lemma Forall2_In_l {A B} (P : A -> B -> Prop) : forall l1 l2, Forall2 P l1 l2 ->
  forall a, In a l1 -> exists b, In b l2 /\ P a b.
Proof.
  induction 1 as [|x y l1 l2 Hxy _ IH]; intros a Ha; [contradiction|].
  destruct Ha as [<-|Ha]; [exists y; split; [left; reflexivity|exact Hxy]|].
  destruct (IH a Ha) as (b & Hb & Hab). exists b. split; [right; exact Hb|exact Hab].
Qed.
Lemma Forall2_In_r {A B} (P : A -> B -> Prop) : forall l1 l2, Forall2 P l1 l2 ->
  forall b, In b l2 -> exists a, In a l1 /\ P a b.
Proof.
  induction 1 as [|x y l1 l2 Hxy _ IH]; intros b Hb; [contradiction|].
  destruct Hb as [<-|Hb]; [exists x; split; [left; reflexivity|exact Hxy]|].
  destruct (IH b Hb) as (a & Ha & Hab). exists a. split; [right; exact Ha|exact Hab].
Qed.

Lemma eq_entries_l_intro kt vt D : forall es,
  (forall k x, In (k, x) es -> exists e', In e' D /\ equiv kt k (fst e') /\ equiv vt x (snd e')) ->
  eq_entries_l kt vt D es.
Proof.
  induction es as [|[k x] r IH]; intros H; [exact I|]. cbn [eq_entries_l]. split.
  - apply H. left. reflexivity.
  - apply IH. intros k0 x0 Hin. apply H. right. exact Hin.
Qed.
Lemma eq_entries_r_intro kt vt e' : forall es,
  (exists k x, In (k, x) es /\ equiv kt k (fst e') /\ equiv vt x (snd e')) -> eq_entries_r kt vt e' es.
Proof.
  induction es as [|[k x] r IH]; intros (k0 & x0 & Hin & Hk & Hx); [contradiction|]. cbn [eq_entries_r].
  destruct Hin as [E|Hin].
  - injection E as -> ->. left. split; assumption.
  - right. apply IH. exists k0, x0. repeat split; assumption.
Qed.

Lemma equiv_entries_perm kt vt es esP D : Permutation es esP ->
  Forall2 (fun p q => equiv kt (fst p) (fst q) /\ equiv vt (snd p) (snd q)) esP D ->
  length D = length es /\ eq_entries_l kt vt D es /\ Forall (fun e' => eq_entries_r kt vt e' es) D.
Proof.
  intros Hp HD. split; [rewrite (Permutation_length Hp); symmetry; exact (Forall2_len _ _ _ HD)|]. split.
  - apply eq_entries_l_intro. intros k x Hin. exact (Forall2_In_l _ _ _ HD _ (Permutation_in _ Hp Hin)).
  - apply Forall_forall. intros q Hq. apply eq_entries_r_intro.
    destruct (Forall2_In_r _ _ _ HD _ Hq) as ([k x] & Hin & H). exists k, x.
    split; [exact (Permutation_in _ (Permutation_sym Hp) Hin)|exact H].
Qed.

Lemma reg_name_anyb t n : reg_name t = Some n -> ty_ok t = true -> anyb t = false.
Proof.
  destruct t; try discriminate. cbn [reg_name]. destruct reg; [|discriminate]. intros _. cbn [ty_ok]. intros H.
  apply andb_true_iff in H. destruct H as [_ H]. cbn [andb] in H. apply negb_true_iff in H. exact H.
Qed.

Section RoundTripF.
Variable pf : bytes -> N -> option N.
Variable o : copts.
Variable R : registry.

(* the leading TypeName tokens a target of type t skips by itself, and what is left *)
Definition lead (t : ty) (ts : list token) : list token := if anyb t then [] else leadl ts.
Definition stripT (t : ty) (ts : list token) : list token := if anyb t then ts else strip ts.

(* stated, as in Proofs/UnmarshalP.v, with extra TypeName tokens in front of a target that skips
   them; an interface-based target sees its stream as it is *)
Definition rtF (v : gval) : Prop :=
  forall t ts, wf_ty t = true -> ty_ok t = true -> has_type t v = true -> dom R t v ->
    marshal default_opts t v = Ok ts ->
    forall pre f rest, forallb is_tn pre = true -> (anyb t = true -> pre = []) ->
    (length pre + 2 * fsz v + length ts < f + length (lead t ts))%nat ->
    exists v', unm pf f o R t (zero t) (pre ++ stripT t ts ++ rest) = Ok (v', rest) /\ Inv t v v' ts.

Lemma rt_elemF_one f L x : rtF x -> (2 * fsz x + L < f)%nat -> elemF R (unm pf f o R) L x.
Proof.
  intros Hx Hf ft a rest' Hwf Hok Ht Hd Hm HL.
  split; [destruct (marshal_headF _ _ _ Hm) as (tk & r & E & Hh & _); exists tk, r; split; assumption|].
  destruct (anyb ft) eqn:Ha.
  - specialize (Hx ft a Hwf Hok Ht Hd Hm [] f rest' eq_refl (fun _ => eq_refl)).
    unfold lead, stripT in Hx. rewrite Ha in Hx. cbn [app length] in Hx. apply Hx. clear - Hf HL. lia.
  - specialize (Hx ft a Hwf Hok Ht Hd Hm (leadl a) f rest' (leadl_tn a) ltac:(intros H; rewrite Ha in H; discriminate H)).
    unfold lead, stripT in Hx. rewrite Ha in Hx. rewrite app_assoc, leadl_strip in Hx. apply Hx. clear - Hf HL. lia.
Qed.

Lemma rt_elemF f L l : Forall rtF l -> (2 * lsz l + L < f)%nat -> Forall (elemF R (unm pf f o R) L) l.
Proof.
  induction 1 as [|x l Hx _ IH]; intros Hf; constructor.
  - apply rt_elemF_one; [exact Hx|]. rewrite lsz_cons in Hf. clear - Hf. lia.
  - apply IH. rewrite lsz_cons in Hf. clear - Hf. lia.
Qed.

Lemma rt_elemF_entries f L es : Forall (fun e => rtF (fst e) /\ rtF (snd e)) es -> (2 * esz es + L < f)%nat ->
  Forall (fun p => elemF R (unm pf f o R) L (fst p) /\ elemF R (unm pf f o R) L (snd p)) es.
Proof.
  induction 1 as [|e l [Hk Hx] _ IH]; intros Hf; constructor.
  - rewrite esz_cons in Hf. split; apply rt_elemF_one; try assumption; clear - Hf; lia.
  - apply IH. rewrite esz_cons in Hf. clear - Hf. lia.
Qed.

(* The TypeName bookkeeping, once for every value whose own stream is [reg_prefix t ++ tk :: r] with
   tk not a TypeName: whatever the target skips (pre and its own prefix, or nothing if it is
   interface-based) is paid for by the fuel, and what is left to show is the run on [tk :: r]. *)
Lemma rt_body (P : gval -> Prop) t cur pre tk r rest f n :
  ty_ok t = true -> (anyb t = true -> pre = []) -> forallb is_tn pre = true -> is_tn tk = false ->
  (length pre + n + length (reg_prefix t ++ tk :: r) < f + length (lead t (reg_prefix t ++ tk :: r)))%nat ->
  (forall f1, (n + length r <= f1)%nat ->
     exists x, unm pf (S f1) o R t cur (tk :: r ++ rest) = Ok (x, rest) /\ P x) ->
  exists x, unm pf f o R t cur (pre ++ stripT t (reg_prefix t ++ tk :: r) ++ rest) = Ok (x, rest) /\ P x.
Proof.
  intros Hok Hpa Hp Htk Hf Hk.
  assert (E : stripT t (reg_prefix t ++ tk :: r) = tk :: r /\
              length (lead t (reg_prefix t ++ tk :: r)) = length (reg_prefix t)).
  { unfold lead, stripT. destruct (anyb t) eqn:Ha; [rewrite (ty_ok_anyb_prefix t Hok Ha); split; reflexivity|].
    destruct (strip_ntn tk r Htk) as [E1 E2]. rewrite strip_prefix, leadl_prefix, E1, E2. split; [reflexivity|apply Nat.add_0_r]. }
  destruct E as [Es El]. rewrite Es. rewrite El, app_length in Hf. cbn [length] in Hf.
  destruct (f - length pre)%nat as [|f1] eqn:Ef; [clear - Hf Ef; lia|].
  replace f with (length pre + S f1)%nat by (clear - Hf Ef; lia).
  rewrite (unm_skip_tnsF pf o R t cur _ pre Hpa Hp). apply Hk. clear - Hf Ef. lia.
Qed.

Lemma stripT_head v t ts : marshal default_opts t v = Ok ts ->
  (length (lead t ts) <= fsz v)%nat /\
  exists tk r, stripT t ts = tk :: r /\ head_ok tk /\ (kind tk = KTypeName -> concrete_target t = false) /\
               (kind tk = KNil -> nilish v = true).
Proof.
  intros Hm. unfold lead, stripT. rewrite anyb_concrete. destruct (anyb t).
  - destruct (marshal_headF v t ts Hm) as (tk & r & E & Hh & Hn). split; [apply Nat.le_0_l|].
    exists tk, r. repeat split; try assumption; apply Hh.
  - destruct (strip_headF v t ts Hm) as (Hl & tk & r & E & Hh & Htn & Hn). split; [exact Hl|].
    exists tk, r. repeat split; try assumption; try apply Hh.
    intros Hk. unfold is_tn in Htn. rewrite Hk in Htn. discriminate Htn.
Qed.

(* scalars, strings, bytes, time: the first universe *)
Lemma rt_leaf v : is_leafv v = true -> rtF v.
Proof.
  intros L t ts Hwf Hok Hty Hd Hm pre f rest Hp Hpa Hf.
  pose proof (leaf_simple t v L Hty) as Hs. destruct (leaf_vsize v L) as (Hv1 & Hv2 & Hv3).
  exists (normal t v). split; [|exact (leaf_inv t v ts L Hty Hm)].
  unfold lead, stripT in *. rewrite (simple_anyb t Hs) in *.
  apply (roundtrip_all pf o R v t ts Hwf Hs Hty Hv3 Hm pre f rest Hp). rewrite Hv1. rewrite Hv2 in Hf.
  clear - Hf. lia.
Qed.

(* a nil pointer or interface: the Nil token leaves the zero value of the target as it is *)
Lemma rt_nil v : v = GPtr None \/ v = GAny None -> rtF v.
Proof.
  intros Hv t ts Hwf Hok Hty _ Hm pre f rest Hp Hpa Hf.
  assert (Hz : zero (underlying t) = v /\ underlying t <> TTime /\ ts = reg_prefix t ++ [T KNil VNone]).
  { destruct Hv as [-> | ->]; cbn [has_type marshal bind] in Hty, Hm; injection Hm as <-;
      destruct (underlying t); try discriminate Hty; repeat split; discriminate. }
  destruct Hz as (Hz & Hnt & ->).
  apply (rt_body _ t (zero t) pre (T KNil VNone) [] rest f _ Hok Hpa Hp eq_refl Hf).
  intros f1 _. exists v. rewrite zero_underlying, Hz. split; [exact (nil_leaves_untouched pf o R f1 t v rest Hnt)|].
  apply Inv_intro; destruct Hv as [-> | ->]; try exact I; try reflexivity;
    cbn [marshal bind]; reflexivity.
Qed.

Lemma rt_list n l : Forall rtF l -> rtF (GList n l).
Proof.
  intros IH t ts Hwf Hok Hty Hd Hm pre f rest Hp Hpa Hf.
  pose proof (wf_underlying t Hwf) as Hwu. pose proof (ty_ok_underlying t Hok) as Hou.
  rewrite has_type_list in Hty. rewrite marshal_GList in Hm. rewrite dom_list_eq in Hd.
  apply bind_ok in Hm. destruct Hm as (ts0 & Hm & Hts). injection Hts as <-.
  apply bind_ok in Hm. destruct Hm as (body & Hm & Hts). injection Hts as <-.
  apply (rt_body _ t (zero t) pre (T KArray VNone) (body ++ [T KArrayEnd VNone]) rest f _ Hok Hpa Hp eq_refl Hf).
  intros f1 Hf1. rewrite fsz_list, app_length in Hf1.
  pose proof (rt_elemF f1 (length body) l IH ltac:(clear - Hf1; cbn [length] in Hf1; lia)) as Hel.
  assert (Hg : (length body < S (length (body ++ T KArrayEnd VNone :: rest)))%nat) by (rewrite app_length; clear; lia).
  rewrite <- app_assoc, zero_underlying. cbn [app]. unfold elem_ty in Hm, Hd.
  destruct (underlying t) eqn:Hut; try discriminate Hty; cbn [wf_ty ty_ok] in Hwu, Hou.
  - (* array *)
    apply andb_true_iff in Hty. destruct Hty as [Hty Hall]. apply andb_true_iff in Hty. destruct Hty as [Hnn Hlen].
    apply Nat.eqb_eq in Hlen. apply negb_true_iff in Hnn. subst n.
    rewrite (unm_array_step pf o R _ _ _ _ _ _ Hut). cbn [zero items_of_gval]. rewrite <- Hlen.
    destruct (arr_loop_reads default_opts _ _ _ _ _ _ Hwu Hou l Hel Hall (dom_list_Forall R _ l Hd) body Hm (le_n _) _ [] rest Hg)
      as (l' & Hloop & Hl'). destruct (read_as_Inv _ _ _ Hl') as (Heq & Hml). rewrite Hm in Hml.
    cbn [app length] in Hloop. rewrite Hloop.
    exists (GList false l'). split; [reflexivity|]. apply Inv_intro; [exact I| |].
    + rewrite equiv_list_eq. unfold elem_ty. rewrite Hut. split; [left; reflexivity|exact Heq].
    + rewrite marshal_GList. unfold elem_ty. rewrite Hut, Hml. reflexivity.
  - (* slice: a nil slice is empty, and an empty slice comes back nil *)
    apply andb_true_iff in Hty. destruct Hty as [Hnn Hall].
    rewrite (unm_slice_step pf o R _ _ _ _ _ Hut). cbn [zero items_of_gval is_nil_container].
    destruct (slice_loop_reads default_opts _ _ _ _ _ _ Hwu Hou l Hel Hall (dom_list_Forall R _ l Hd) body Hm (le_n _) _ [] rest Hg)
      as (l' & Hloop & Hl'). destruct (read_as_Inv _ _ _ Hl') as (Heq & Hml). rewrite Hm in Hml.
    rewrite Hloop. cbn [bind fst snd app andb].
    eexists. split; [reflexivity|]. apply Inv_intro; [exact I| |].
    + rewrite equiv_list_eq. unfold elem_ty. rewrite Hut. split; [|exact Heq].
      destruct l as [|x0 l0]; [right; reflexivity|]. destruct l' as [|x0' l0']; [contradiction Heq|].
      exact (nilflag n (x0 :: l0) Hnn).
    + rewrite marshal_GList. unfold elem_ty. rewrite Hut, Hml. reflexivity.
Qed.

Lemma rt_struct l : Forall rtF l -> rtF (GStruct l).
Proof.
  intros IH t ts Hwf Hok Hty Hd Hm pre f rest Hp Hpa Hf.
  pose proof (wf_underlying t Hwf) as Hwu. pose proof (ty_ok_underlying t Hok) as Hou.
  destruct (has_type_struct_inv _ _ Hty) as (fs & Hut & Htf).
  rewrite marshal_GStruct in Hm. rewrite dom_struct_eq in Hd. unfold fields_of in Hm, Hd. rewrite Hut in Hm, Hd, Hwu, Hou.
  apply bind_ok in Hm. destruct Hm as (ts0 & Hm & Hts). injection Hts as <-.
  apply bind_ok in Hm. destruct Hm as (body & Hm & Hts). injection Hts as <-.
  apply (rt_body _ t (zero t) pre (T KObject VNone) (body ++ [T KObjectEnd VNone]) rest f _ Hok Hpa Hp eq_refl Hf).
  intros f1 Hf1. rewrite fsz_struct, app_length in Hf1. cbn [length] in Hf1.
  pose proof (rt_elemF f1 (length body) l IH ltac:(clear - Hf1; lia)) as Hel.
  pose proof (unm_name_fuel pf o R f1 ltac:(clear - Hf1; lia)) as Hnm.
  rewrite wf_ty_struct in Hwu. apply andb_true_iff in Hwu. destruct Hwu as [Hwfs Hnd]. cbn [ty_ok] in Hou.
  rewrite (unm_struct_step pf o R _ _ _ _ _ Hut), zero_underlying, Hut, <- app_assoc. cbn [zero app].
  destruct (struct_loop_F o R (unm pf f1 o R) Hnm (length body) l Hel fs [] fs [] body eq_refl Hnd Hwfs Hou Htf Hd Hm
              (le_n _) eq_refl (S (length (body ++ T KObjectEnd VNone :: rest))) (depr_of t) rest) as (l' & Hloop & Heq & Hml).
  { rewrite app_length. clear. lia. }
  cbn [app] in Hloop. rewrite Hloop.
  exists (GStruct l'). split; [reflexivity|]. apply Inv_intro; [exact I| |].
  - rewrite equiv_struct_eq. unfold fields_of. rewrite Hut. exact Heq.
  - rewrite marshal_GStruct. unfold fields_of. rewrite Hut, Hml. reflexivity.
Qed.

(* a nil func has no results (by [dom]) and comes back as a func returning nothing *)
Lemma rt_nil_func : rtF (GFunc None).
Proof.
  intros t ts Hwf Hok Hty Hd Hm pre f rest Hp Hpa Hf.
  destruct (has_type_func_inv _ _ Hty) as (outs & Hut & _).
  cbn [dom] in Hd. unfold outs_of in Hd. rewrite Hut in Hd. subst outs.
  cbn [marshal ignore_funcs default_opts bind] in Hm. injection Hm as <-.
  apply (rt_body _ t (zero t) pre (T KTuple VNone) [T KTupleEnd VNone] rest f _ Hok Hpa Hp eq_refl Hf).
  intros f1 _. rewrite (unm_func_step pf o R _ _ _ _ _ Hut).
  exists (GFunc (Some [])). split; [reflexivity|]. apply Inv_intro; [exact I|right; reflexivity|].
  rewrite marshal_GFunc. cbn [ignore_funcs default_opts]. unfold outs_of. rewrite Hut. reflexivity.
Qed.

Lemma rt_func l : Forall rtF l -> rtF (GFunc (Some l)).
Proof.
  intros IH t ts Hwf Hok Hty Hd Hm pre f rest Hp Hpa Hf.
  pose proof (wf_underlying t Hwf) as Hwu. pose proof (ty_ok_underlying t Hok) as Hou.
  destruct (has_type_func_inv _ _ Hty) as (outs & Hut & Hto).
  rewrite marshal_GFunc in Hm. rewrite dom_func_eq in Hd. unfold outs_of in Hm, Hd. rewrite Hut in Hm, Hd, Hwu, Hou.
  cbn [ignore_funcs default_opts] in Hm.
  apply bind_ok in Hm. destruct Hm as (ts0 & Hm & Hts). injection Hts as <-.
  apply bind_ok in Hm. destruct Hm as (body & Hm & Hts). injection Hts as <-.
  cbn [wf_ty ty_ok] in Hwu, Hou. apply andb_true_iff in Hou. destruct Hou as [Hou H50]. apply Nat.leb_le in H50.
  apply (rt_body _ t (zero t) pre (T KTuple VNone) (body ++ [T KTupleEnd VNone]) rest f _ Hok Hpa Hp eq_refl Hf).
  intros f1 Hf1. rewrite fsz_func, app_length in Hf1. cbn [length] in Hf1.
  pose proof (rt_elemF f1 (length body) l IH ltac:(clear - Hf1; lia)) as Hel.
  rewrite (unm_func_step pf o R _ _ _ _ _ Hut), <- app_assoc. cbn [app].
  destruct (tuple_loop_F R (unm pf f1 o R) (length body) l Hel outs body Hwu Hou Hto Hd Hm (le_n _)
              (S (length (body ++ T KTupleEnd VNone :: rest))) [] [] rest) as (l' & Hloop & Heq & Hml & Hlen).
  { rewrite app_length. clear. lia. }
  rewrite Hloop. cbn [bind app].
  assert (E50 : Nat.ltb 50 (length l') = false) by (apply Nat.ltb_ge; rewrite Hlen; exact H50).
  rewrite E50, Hlen, Nat.eqb_refl.
  exists (GFunc (Some l')). split; [reflexivity|]. apply Inv_intro; [exact I| |].
  - rewrite equiv_func_eq. unfold outs_of. rewrite Hut. exact Heq.
  - rewrite marshal_GFunc. cbn [ignore_funcs default_opts]. unfold outs_of. rewrite Hut, Hml. reflexivity.
Qed.

(* a pointer target skips what its pointee would skip, and its own prefix; the pointee then finds
   a head that is neither a TypeName it would skip nor (by [dom]) Nil *)
Lemma rt_ptr x : rtF x -> rtF (GPtr (Some x)).
Proof.
  intros IH t ts Hwf Hok Hty Hd Hm pre f rest Hp Hpa Hf.
  pose proof (wf_underlying t Hwf) as Hwu. pose proof (ty_ok_underlying t Hok) as Hou.
  destruct (has_type_ptr_inv _ _ Hty) as (e & Hut & Htx).
  rewrite marshal_GPtr in Hm. cbn [dom] in Hd. unfold pointee_ty in Hm, Hd. rewrite Hut in Hm, Hd, Hwu, Hou.
  apply bind_ok in Hm. destruct Hm as (tsx & Hm & Hts). injection Hts as <-.
  destruct Hd as [Hnil Hdx]. cbn [wf_ty ty_ok] in Hwu, Hou.
  assert (Hae : anyb e = anyb t) by (rewrite (anyb_underlying t), Hut; reflexivity).
  assert (E : stripT t (reg_prefix t ++ tsx) = stripT e tsx /\
              length (lead t (reg_prefix t ++ tsx)) = (length (reg_prefix t) + length (lead e tsx))%nat).
  { unfold stripT, lead. rewrite Hae.
    destruct (anyb t) eqn:Ha; [rewrite (ty_ok_anyb_prefix t Hok Ha); split; reflexivity|].
    split; [apply strip_prefix|apply leadl_prefix]. }
  destruct E as [Es El]. rewrite Es. rewrite El, app_length in Hf. cbn [fsz] in Hf.
  destruct (stripT_head x e tsx Hm) as (Hlead & tk & r & E & Hh & Htn & Hnilk). rewrite anyb_concrete, Hae, <- anyb_concrete in Htn.
  destruct (f - length pre)%nat as [|f1] eqn:Ef; [clear - Hf Hlead Ef; lia|].
  destruct (IH e tsx Hwu Hou Htx Hdx Hm [] f1 rest eq_refl (fun _ => eq_refl)) as (x' & Hux & (He & Hmx & _)).
  { cbn [length]. clear - Hf Ef. lia. }
  exists (GPtr (Some x')). split.
  - replace f with (length pre + S f1)%nat by (clear - Hf Hlead Ef; lia).
    rewrite (unm_skip_tnsF pf o R t _ _ pre Hpa Hp). cbn [app] in Hux. rewrite E in Hux |- *. cbn [app] in Hux |- *.
    rewrite (unm_ptr pf o R f1 t e _ tk _ Hut (conv_tok_nonlit pf t tk (proj1 Hh)) Htn), Hux; [reflexivity| |exact (proj2 Hh)].
    apply N.eqb_neq. intros Hk. rewrite (Hnilk Hk) in Hnil. discriminate Hnil.
  - apply Inv_intro; [exact I| |].
    + cbn [equiv]. unfold pointee_ty. rewrite Hut. exact He.
    + rewrite marshal_GPtr. unfold pointee_ty. rewrite Hut, Hmx. reflexivity.
Qed.

(* a non-nil interface: an interface-based target skips nothing and carries no prefix *)
Lemma rt_any t' x : rtF x -> rtF (GAny (Some (t', x))).
Proof.
  intros IH t ts Hwf Hok Hty Hd Hm pre f rest Hp Hpa Hf.
  destruct (has_type_any_inv _ _ Hty) as (Hut & Htx).
  assert (Ha : anyb t = true) by (rewrite anyb_underlying, Hut; reflexivity).
  assert (HmT : forall d, marshal default_opts t (GAny d) = marshal default_opts TAny (GAny d))
    by (intros d; cbn [marshal]; rewrite (ty_ok_anyb_prefix t Hok Ha); reflexivity).
  rewrite (Hpa Ha). unfold lead, stripT in *. rewrite Ha in *.
  rewrite (unm_named_any pf o R t Hut), zero_underlying, Hut. cbn [zero].
  rewrite HmT in Hm. cbn [marshal reg_prefix] in Hm. apply bind_ok in Hm. destruct Hm as (tsx & Hm & Hts).
  injection Hts as <-. cbn [app length fsz] in *.
  cbn [dom] in Hd. destruct (reg_name t') as [nm|] eqn:Hrn.
  - (* a registered defined type the registry knows: decoded at that type *)
    destruct Hd as (Hreg & Hwf' & Hok' & Hdx).
    pose proof (reg_name_anyb t' nm Hrn Hok') as Ha'.
    destruct (marshal_inv _ _ _ _ Hm) as (bodyx & _ & Etsx).
    rewrite (reg_name_prefix t' nm Hrn) in Etsx. cbn [app] in Etsx. subst tsx.
    destruct f as [|f1]; [clear - Hf; lia|].
    destruct (IH t' _ Hwf' Hok' Htx Hdx Hm (leadl bodyx) f1 rest (leadl_tn bodyx)
                ltac:(intros H; rewrite Ha' in H; discriminate H)) as (x' & Hux & (_ & Hmx & _)).
    { unfold lead. rewrite Ha'. cbn [leadl]. change (is_tn (T KTypeName (VStr nm))) with true.
      cbn beta iota. cbn [length] in Hf |- *. clear - Hf. lia. }
    unfold stripT in Hux. rewrite Ha' in Hux. cbn [strip] in Hux.
    change (is_tn (T KTypeName (VStr nm))) with true in Hux. cbn beta iota in Hux.
    rewrite app_assoc, leadl_strip in Hux.
    exists (GAny (Some (t', x'))). split.
    + cbn [app]. rewrite (unm_any_tn pf o R f1 _ nm t' _ Hreg), Hux. reflexivity.
    + split; [|split; [rewrite HmT|]]; [cbn [equiv marshal]; rewrite ?Hm, ?Hmx; reflexivity..|].
      intros Hk. exfalso. cbn [keyin] in Hk. apply andb_true_iff in Hk. destruct Hk as [_ Hk]. rewrite Hm in Hk.
      destruct bodyx; [exact (marshal_not_single_tn _ _ _ Hm)|discriminate Hk].
  - (* a value of the canonical schema-less domain: Proofs/AnyP.v *)
    destruct (any_stream_ok_inv _ _ Hd) as (w & Hw & Hmw). rewrite Hm in Hmw. injection Hmw as ->.
    exists (dec w). split; [apply (any_unm pf o R w f rest Hw); clear - Hf; lia|].
    destruct (dec_is_any w) as (d & Ed). pose proof (any_marshal R w Hw) as Hmd. rewrite Ed in *.
    split; [|split; [rewrite HmT; exact Hmd|]].
    + cbn [equiv]. rewrite Hmd. cbn [marshal]. rewrite Hm. reflexivity.
    + intros Hk. rewrite <- Ed. exact (keyin_dec t' x w Hk Hm Hw).
Qed.

(* the entries of a map come on the wire sorted by key stream: the loop is run on a permutation
   esP of the entries, and [equiv] on maps does not see the order *)
Lemma rt_map n es : Forall (fun e => rtF (fst e) /\ rtF (snd e)) es -> rtF (GMap n es).
Proof.
  intros IH t ts Hwf Hok Hty Hd Hm pre f rest Hp Hpa Hf.
  pose proof (wf_underlying t Hwf) as Hwu. pose proof (ty_ok_underlying t Hok) as Hou.
  destruct (has_type_map_inv _ _ _ Hty) as (kt & vt & Hut & Hnn & Htes).
  rewrite marshal_GMap in Hm. rewrite dom_map_eq in Hd. unfold kv_ty in Hm, Hd. rewrite Hut in Hm, Hd, Hwu, Hou.
  cbn [fst snd] in Hd. destruct Hd as (Hdiff & Hnoany & Hdes).
  apply bind_ok in Hm. destruct Hm as (ts0 & Hm & Hts). injection Hts as <-.
  apply bind_ok in Hm. destruct Hm as (es0 & Hm & Hts). injection Hts as <-.
  change (flat_map (fun e : list token * list token * list token => snd (fst e) ++ snd e)) with (flat_map fe) in *.
  cbn [wf_ty ty_ok] in Hwu, Hou.
  apply andb_true_iff in Hwu. destruct Hwu as [Hwk Hwv]. apply andb_true_iff in Hou. destruct Hou as [Hokk Hov].
  apply marshal_entries_ok in Hm. destruct Hm as [H2 Hgood].
  remember (sort_entries es0) as Srt eqn:ESrt.
  assert (HpS : Permutation es0 Srt) by (subst Srt; apply Permutation_sym, sort_entries_perm).
  destruct (Forall2_perm _ es0 Srt HpS es H2) as (esP & HpP & H2P).
  pose proof (typed_entries_Forall kt vt es Htes) as Htf.
  destruct (sorted_entries kt vt es es0 Hwk Hnoany (Forall_impl _ (fun p H => proj1 H) Htf) Hdiff H2) as [Hsorted Hwsk].
  rewrite <- ESrt in Hsorted, Hwsk.
  assert (Htd : Forall (fun p => (has_type kt (fst p) = true /\ dom R kt (fst p) /\ keyin (fst p) = true) /\
                                has_type vt (snd p) = true /\ dom R vt (snd p)) es).
  { clear - Htf Hdes Hnoany. induction es as [|[k x] r IHr]; [constructor|].
    inversion Htf as [|? ? [H1 H2] Hr]; subst. destruct Hdes as [[Hdk Hdx] Hdr].
    cbn [map forallb fst] in Hnoany. apply andb_true_iff in Hnoany. destruct Hnoany as [Hn1 Hn2].
    constructor; [repeat split; assumption|apply IHr; assumption]. }
  apply (rt_body _ t (zero t) pre (T KMap VNone) (flat_map fe Srt ++ [T KMapEnd VNone]) rest f _ Hok Hpa Hp eq_refl Hf).
  intros f1 Hf1. rewrite fsz_map, app_length in Hf1. cbn [length] in Hf1.
  pose proof (rt_elemF_entries f1 (length (flat_map fe Srt)) es IH ltac:(clear - Hf1; lia)) as Hel.
  rewrite (unm_map_step pf o R _ _ _ _ _ _ Hut), zero_underlying, Hut, <- app_assoc. cbn [zero fst snd app].
  destruct (map_loop_F R (unm pf f1 o R) _ kt vt Hwk Hokk Hwv Hov esP Srt H2P (Permutation_Forall HpP Hel)
              (Permutation_Forall HpP Htd) Hsorted (le_n _)
              (S (length (flat_map fe Srt ++ T KMapEnd VNone :: rest))) true [] rest) as (D & Hloop & HD & HrD).
  { rewrite app_length. clear. lia. }
  { constructor. }
  cbn [app] in Hloop. rewrite Hloop.
  eexists. split; [reflexivity|]. apply Inv_intro; [exact I| |].
  - rewrite equiv_map_eq. unfold kv_ty. rewrite Hut. cbn [fst snd andb].
    split; [|exact (equiv_entries_perm kt vt es esP D HpP HD)].
    destruct es as [|e0 es']; [right; reflexivity|].
    apply Permutation_length in HpP. apply Forall2_len in H2P.
    destruct Srt as [|s0 Srt']; [rewrite <- HpP in H2P; discriminate H2P|]. exact (nilflag n (e0 :: es') Hnn).
  - rewrite marshal_GMap. unfold kv_ty. rewrite Hut. cbv beta iota.
    assert (HmD : marshal_entries default_opts kt vt D = Ok Srt)
      by (apply marshal_entries_ok; split; [exact HrD|exact (Permutation_Forall HpS Hgood)]).
    rewrite HmD. cbn [bind].
    rewrite (sort_sorted Srt Hwsk Hsorted). reflexivity.
Qed.

Theorem roundtrip_full_all : forall v, rtF v.
Proof.
  induction v as [b|z|n|b|b|s|n s|n l IH|n es IH|l IH| |x IH| |t' x IH| |l IH|e] using gval_ind3.
  1-7,17: apply rt_leaf; reflexivity.
  - apply rt_list, IH.
  - apply rt_map, IH.
  - apply rt_struct, IH.
  - apply rt_nil. left. reflexivity.
  - apply rt_ptr, IH.
  - apply rt_nil. right. reflexivity.
  - apply rt_any, IH.
  - exact rt_nil_func.
  - apply rt_func, IH.
Qed.

End RoundTripF.

Theorem roundtrip_full_partial_fuel pf o R t v ts rest f :
  wf_ty t = true -> ty_ok t = true -> has_type t v = true -> dom R t v ->
  marshal default_opts t v = Ok ts -> (2 * fsz v + length ts < f)%nat ->
  exists v', unm pf f o R t (zero t) (ts ++ rest) = Ok (v', rest) /\ equiv t v v' /\
             marshal default_opts t v' = Ok ts.
Proof.
  intros Hwf Hok Ht Hd Hm Hf.
  destruct (rt_elemF_one pf o R f (length ts) v (roundtrip_full_all pf o R v) ltac:(lia) t ts rest Hwf Hok Ht Hd Hm (le_n _))
    as (_ & v' & Hu & He & Hmv & _).
  exists v'. repeat split; assumption.
Qed.

(* the statement in the shape of the property ([no_ptr_to_nil] is kept for the shape: on the
   positions that are on the wire it is implied by the pointer clause of [dom]) *)
Theorem roundtrip_full_partial pf o R t v ts rest :
  wf_ty t = true -> ty_ok t = true -> has_type t v = true -> no_ptr_to_nil v = true -> dom R t v ->
  marshal default_opts t v = Ok ts ->
  exists f v', unm pf f o R t (zero t) (ts ++ rest) = Ok (v', rest) /\ equiv t v v'.
Proof.
  intros Hwf Hok Ht _ Hd Hm.
  destruct (roundtrip_full_partial_fuel pf o R t v ts rest (S (2 * fsz v + length ts)) Hwf Hok Ht Hd Hm ltac:(lia))
    as (v' & Hu & He & _).
  exists (S (2 * fsz v + length ts)), v'. split; assumption.
Qed.

Corollary roundtrip_full_partial_stable pf o R t v ts rest :
  wf_ty t = true -> ty_ok t = true -> has_type t v = true -> dom R t v ->
  marshal default_opts t v = Ok ts ->
  exists v', equiv t v v' /\ marshal default_opts t v' = Ok ts /\
             forall f, (2 * fsz v + length ts < f)%nat -> unm pf f o R t (zero t) (ts ++ rest) = Ok (v', rest).
Proof.
  intros Hwf Hok Ht Hd Hm.
  destruct (roundtrip_full_partial_fuel pf o R t v ts rest (S (2 * fsz v + length ts)) Hwf Hok Ht Hd Hm ltac:(lia))
    as (v' & Hu & He & Hmv).
  exists v'. split; [exact He|]. split; [exact Hmv|]. intros f Hf.
  apply (unm_fuel_mono pf o R _ _ _ _ _ Hu); [discriminate|lia].
Qed.

(* a concrete value: a struct with a map of two entries (one nil slice value), an interface
        holding an int, a tuple func with two results, a pointer to a map with a NaN value, an
        interface holding a value of a REGISTERED struct type that itself has an interface field
        holding a []any, an unexported field, a nil func without results, a map keyed by structs
        (with an unexported field), a field of a defined interface type holding a defined int, a map
        with interface keys (a string, a defined int, nil) *)
Definition ExReg : ty := TNamed [73] true [] (TStruct [([88], true, TInt WNat); ([89], true, TAny)]).
Definition ExRegistry : registry := [([73], ExReg)].
Definition ExFull : ty :=
  TStruct [([77], true, TMap TString (TSlice (TInt W8)));
           ([65], true, TAny);
           ([70], true, TFunc [TInt WNat; TString]);
           ([80], true, TPtr (TMap (TInt WNat) TF64));
           ([82], true, TAny);
           ([117], false, TInt WNat);
           ([71], true, TFunc []);
           ([75], true, TMap (TStruct [([88], true, TInt W8); ([121], false, TString)]) (TPtr TBool));
           ([78], true, TNamed [78] false [] TAny);
           ([73], true, TMap TAny TString)].
Definition ex_full : gval :=
  GStruct [GMap false [(GStr [98], GList false [GInt 1; GInt 2]); (GStr [97], GList true [])];
           GAny (Some (TInt WNat, GInt 42));
           GFunc (Some [GInt 7; GStr [104; 105]]);
           GPtr (Some (GMap false [(GInt 3, GF64 9221120237041090562); (GInt (-1), GF64 0)]));
           GAny (Some (ExReg, GStruct [GInt 5;
                                       GAny (Some (TSlice TAny, GList false [GAny (Some (TBool, GBool true)); GAny None]))]));
           GInt 9;
           GFunc None;
           GMap false [(GStruct [GInt 2; GStr [7]], GPtr (Some (GBool true))); (GStruct [GInt (-2); GStr [8]], GPtr None)];
           GAny (Some (TNamed [77] false [] (TInt W16), GInt 300));
           GMap false [(GAny (Some (TString, GStr [97])), GStr [1]);
                       (GAny (Some (TNamed [77] false [] (TInt WNat), GInt 5)), GStr [2]);
                       (GAny None, GStr [3])]].
Definition ex_full_ts : list token :=
  Eval vm_compute in match marshal default_opts ExFull ex_full with Ok ts => ts | _ => [] end.
(* what comes back: the map entries in key order, the empty slice nil, NaN canonical, the
   unexported field zero, the nil func as a func returning nothing *)
Definition ex_full_back : gval :=
  GStruct [GMap false [(GStr [97], GList true []); (GStr [98], GList false [GInt 1; GInt 2])];
           GAny (Some (TInt WNat, GInt 42));
           GFunc (Some [GInt 7; GStr [104; 105]]);
           GPtr (Some (GMap false [(GInt (-1), GF64 0); (GInt 3, GF64 f64_nan_bits)]));
           GAny (Some (ExReg, GStruct [GInt 5;
                                       GAny (Some (TSlice TAny, GList false [GAny (Some (TBool, GBool true)); GAny None]))]));
           GInt 0;
           GFunc (Some []);
           GMap false [(GStruct [GInt (-2); GStr []], GPtr None); (GStruct [GInt 2; GStr []], GPtr (Some (GBool true)))];
           GAny (Some (TInt W16, GInt 300));
           GMap false [(GAny None, GStr [3]); (GAny (Some (TString, GStr [97])), GStr [1]);
                       (GAny (Some (TInt WNat, GInt 5)), GStr [2])]].

Example roundtrip_full_ex_hyps :
  wf_ty ExFull = true /\ ty_ok ExFull = true /\ has_type ExFull ex_full = true /\
  no_ptr_to_nil ex_full = true /\ dom ExRegistry ExFull ex_full /\
  marshal default_opts ExFull ex_full = Ok ex_full_ts /\ length ex_full_ts = 65%nat.
Proof.
  split; [reflexivity|]. split; [reflexivity|]. split; [vm_compute; reflexivity|]. split; [reflexivity|].
  split; [|split; vm_compute; reflexivity].
  vm_compute. repeat first [split | intros _]; reflexivity.
Qed.

(* the theorem applied to it, and its conclusion computed: the decoded value is ex_full_back,
   so ex_full_back is equivalent to ex_full and has the same stream *)
Example roundtrip_full_ex_run :
  unm (fun _ _ => None) 200 (Opts false true false) ExRegistry ExFull (zero ExFull) (ex_full_ts ++ [T KBool (VBool true)])
  = Ok (ex_full_back, [T KBool (VBool true)]) /\
  equiv ExFull ex_full ex_full_back /\
  marshal default_opts ExFull ex_full_back = Ok ex_full_ts.
Proof.
  destruct roundtrip_full_ex_hyps as (H1 & H2 & H3 & _ & H5 & H6 & H7).
  destruct (roundtrip_full_partial_fuel (fun _ _ => None) (Opts false true false) ExRegistry ExFull ex_full ex_full_ts
              [T KBool (VBool true)] 200 H1 H2 H3 H5 H6) as (v' & Hu & He & Hm).
  { rewrite H7. vm_compute. lia. }
  assert (Hc : unm (fun _ _ => None) 200 (Opts false true false) ExRegistry ExFull (zero ExFull)
                 (ex_full_ts ++ [T KBool (VBool true)]) = Ok (ex_full_back, [T KBool (VBool true)]))
    by (vm_compute; reflexivity).
  rewrite Hc in Hu. injection Hu as <-. split; [reflexivity|]. split; assumption.
Qed.

Example roundtrip_full_ex_thm : forall pf o rest,
  exists f v', unm pf f o ExRegistry ExFull (zero ExFull) (ex_full_ts ++ rest) = Ok (v', rest) /\
               equiv ExFull ex_full v'.
Proof.
  intros pf o rest. destruct roundtrip_full_ex_hyps as (H1 & H2 & H3 & H4 & H5 & H6 & _).
  apply roundtrip_full_partial; assumption.
Qed.

(* a byte array inside an interface-typed key (compare witness 3 of roundtrip_full_refuted): the
   Bytes token is decoded to a []byte and converted to a [2]byte by toComparable; the value comes
   back as it was *)
Definition ExBytesKeyT : ty := TMap TAny (TInt WNat).
Definition ex_bytes_key : gval := GMap false [(GAny (Some (TByteArray 2, GBytes false [1; 2])), GInt 5)].

Example roundtrip_bytes_key_in_any :
  (wf_ty ExBytesKeyT = true /\ ty_ok ExBytesKeyT = true /\ has_type ExBytesKeyT ex_bytes_key = true /\
   no_ptr_to_nil ex_bytes_key = true /\ dom [] ExBytesKeyT ex_bytes_key /\
   marshal default_opts ExBytesKeyT ex_bytes_key =
     Ok [T KMap VNone; T KBytes (VBytes [1; 2]); T KInt (VI WNat 5); T KMapEnd VNone]) /\
  unm (fun _ _ => None) 20 default_opts [] ExBytesKeyT (zero ExBytesKeyT)
      ([T KMap VNone; T KBytes (VBytes [1; 2]); T KInt (VI WNat 5); T KMapEnd VNone] ++ [T KBool (VBool true)])
    = Ok (ex_bytes_key, [T KBool (VBool true)]) /\
  (forall pf o R rest, exists f v',
     unm pf f o R ExBytesKeyT (zero ExBytesKeyT)
         ([T KMap VNone; T KBytes (VBytes [1; 2]); T KInt (VI WNat 5); T KMapEnd VNone] ++ rest) = Ok (v', rest) /\
     equiv ExBytesKeyT ex_bytes_key v').
Proof.
  assert (Hh : wf_ty ExBytesKeyT = true /\ ty_ok ExBytesKeyT = true /\ has_type ExBytesKeyT ex_bytes_key = true /\
               no_ptr_to_nil ex_bytes_key = true /\ dom [] ExBytesKeyT ex_bytes_key /\
               marshal default_opts ExBytesKeyT ex_bytes_key =
                 Ok [T KMap VNone; T KBytes (VBytes [1; 2]); T KInt (VI WNat 5); T KMapEnd VNone]).
  { split; [reflexivity|]. split; [reflexivity|]. split; [reflexivity|]. split; [reflexivity|].
    split; [|reflexivity]. vm_compute. repeat first [split | intros _]; reflexivity. }
  split; [exact Hh|]. split; [vm_compute; reflexivity|].
  intros pf o R rest. destruct Hh as (H1 & H2 & H3 & H4 & H5 & H6).
  assert (H5' : dom R ExBytesKeyT ex_bytes_key).
  { vm_compute. repeat first [split | intros _]; reflexivity. }
  exact (roundtrip_full_partial pf o R ExBytesKeyT ex_bytes_key _ rest H1 H2 H3 H4 H5' H6).
Qed.

(* [equiv] extends the functional equivalence of the first universe: on simple types the value
   [normal t v] that Proofs/UnmarshalP.v proves to come back is equivalent to v *)
Theorem equiv_normal : forall v t, simple_ty t = true -> has_type t v = true -> equiv t v (normal t v).
Proof.
  induction v as [b|z|n|b|b|s|n s|n l IH|n es|l IH| |x IH|d|r|e] using gval_ind2; intros t Hs Hty;
    pose proof (simple_underlying t Hs) as Hsu;
    try (apply leaf_equiv; [reflexivity|exact Hty]);
    try (exfalso; cbn [has_type] in Hty; destruct (underlying t); discriminate).
  - (* list *)
    rewrite has_type_list in Hty. rewrite normal_list.
    assert (Hall : forall e, simple_ty e = true -> typed_list e l = true -> eq_list e l (map (normal e) l)).
    { clear Hty. intros e He. induction IH as [|x l Hx _ IHl]; intros Ht; [exact I|].
      rewrite typed_list_cons in Ht.
      apply andb_true_iff in Ht. destruct Ht as [Htx Htl]. cbn [map eq_list]. split; [apply Hx; assumption|apply IHl, Htl]. }
    destruct (underlying t) eqn:Hut; try discriminate Hty; cbn [simple_ty] in Hsu.
    + apply andb_true_iff in Hty. destruct Hty as [Hty Ht]. apply andb_true_iff in Hty. destruct Hty as [Hn _].
      apply negb_true_iff in Hn. subst n. rewrite equiv_list_eq. unfold elem_ty. rewrite Hut.
      split; [left; reflexivity|apply Hall; assumption].
    + apply andb_true_iff in Hty. destruct Hty as [Hn Ht]. rewrite equiv_list_eq. unfold elem_ty. rewrite Hut.
      split; [|apply Hall; assumption].
      destruct l as [|x0 l0]; [right; reflexivity|exact (nilflag n (x0 :: l0) Hn)].
  - (* struct *)
    destruct (has_type_struct_inv _ _ Hty) as (fs & Hut & Htf). clear Hty.
    rewrite normal_struct, Hut. rewrite Hut in Hsu. cbn [simple_ty] in Hsu.
    rewrite equiv_struct_eq. unfold fields_of. rewrite Hut. clear Hut.
    revert fs Hsu Htf. induction IH as [|x l Hx _ IHl]; intros fs Hsf Ht.
    + destruct fs; [exact I|discriminate Ht].
    + destruct fs as [|fd fs]; [discriminate Ht|].
      rewrite typed_fields_cons in Ht.
      apply andb_true_iff in Ht. destruct Ht as [Htx Htl].
      cbn [forallb] in Hsf. apply andb_true_iff in Hsf. destruct Hsf as [Hsx Hsl].
      rewrite nfields_cons.
      cbn [eq_fields]. split; [|apply IHl; assumption].
      destruct (fexported fd); [apply Hx; assumption|reflexivity].
  - reflexivity.
  - cbn [has_type] in Hty. destruct (underlying t) eqn:Hut; try discriminate Hty. cbn [simple_ty] in Hsu.
    cbn [normal]. rewrite Hut. cbn [equiv]. unfold pointee_ty. rewrite Hut. apply IH; assumption.
Qed.

Definition refutes (R : registry) (t : ty) (v : gval) : Prop :=
  wf_ty t = true /\ has_type t v = true /\ no_ptr_to_nil v = true /\
  exists ts, marshal default_opts t v = Ok ts /\
    forall f v', unm pf0 f default_opts R t (zero t) (ts ++ []) = Ok (v', []) -> ~ equiv t v v'.

Definition RegPtrAny : ty := TNamed [80] true [] (TPtr TAny).

Ltac refute_with r :=
  split; [reflexivity|]; split; [reflexivity|]; split; [reflexivity|];
  eexists; split; [vm_compute; reflexivity|];
  intros f v' H;
  match type of H with
  | unm ?pf f ?o ?R ?t ?cur ?ts = _ =>
      let Hc := fresh "Hc" in
      assert (Hc : unm pf 30 o R t cur ts = r) by (vm_compute; reflexivity);
      destruct (unm_only pf o R t cur ts 30 r Hc ltac:(discriminate) f) as [E|E];
      rewrite E in H; try discriminate H
  end.

Theorem roundtrip_full_refuted :
  (* 1. *any pointing at a nil interface: marshals to Nil, comes back as a nil pointer, as a **T
        pointing at a nil *T does, which [no_ptr_to_nil] excludes (this one is cut away by [dom]:
        nilish) *)
  refutes [] (TPtr TAny) (GPtr (Some (GAny None))) /\
  (* 2. a REGISTERED defined type over *any (type P *any; sb.Register(P)): the target does not
        skip its own TypeName, the interface it points to looks P up and receives a P value;
        the interface position holds [Int 5] before and [TypeName P, Int 5] after
        (cut away by [ty_ok]) *)
  refutes [([80], RegPtrAny)] RegPtrAny (GPtr (Some (GAny (Some (TInt WNat, GInt 5))))) /\
  (* 3. map[any]int with an array of ints as key: marshals, but the key is decoded schema-less into
        a []any, which is unhashable: BadMapKey, as in unmarshal.go, where the typed map path
        rejects a key that is not Comparable() after toComparable (cut away by [dom]: [keyin]).
        With a byte array as key the round trip holds, toComparable turning the decoded []byte
        into a byte array: roundtrip_bytes_key_in_any) *)
  refutes [] (TMap TAny (TInt WNat))
    (GMap false [(GAny (Some (TArray 2 (TInt WNat), GList false [GInt 1; GInt 2])), GInt 5)]) /\
  (* 4. a nil tuple func with results: marshals to the empty tuple, TooFew on the way back
        (the stated edge; cut away by [dom]) *)
  refutes [] (TFunc [TInt WNat]) (GFunc None) /\
  (* 5. an interface holding a struct with a nil pointer field: schema-less decoding rejects a Nil
        field value (the edge of Proofs/AnyP.v; cut away by [dom]: any_stream_ok) *)
  refutes [] TAny (GAny (Some (TStruct [([65], true, TPtr TBool)], GStruct [GPtr None]))) /\
  (* 6. the hypothesis on the registry is needed: an interface holding a value of a registered
        type the READER's registry does not know: the TypeName is dropped, the position holds
        [TypeName R, Int 5] before and [Int 5] after *)
  refutes [] TAny (GAny (Some (TNamed [82] true [] (TInt WNat), GInt 5))).
Proof.
  split; [|split; [|split; [|split; [|split]]]].
  - refute_with (@Ok (gval * list token) (GPtr None, [])).
    injection H as <-. intros He. exact He.
  - refute_with (@Ok (gval * list token)
                   (GPtr (Some (GAny (Some (RegPtrAny, GPtr (Some (GAny (Some (TInt WNat, GInt 5)))))))), [])).
    injection H as <-. intros He. cbn [equiv] in He. vm_compute in He. discriminate He.
  - refute_with (@Err (gval * list token) EBadMapKey).
  - refute_with (@Err (gval * list token) ETooFew).
  - refute_with (@Err (gval * list token) EEnd).
  - refute_with (@Ok (gval * list token) (GAny (Some (TInt WNat, GInt 5)), [])).
    injection H as <-. intros He. cbn [equiv] in He. vm_compute in He. discriminate He.
Qed.

(* the same six inputs against the hypotheses of the theorem: each violates exactly the clause
   named above *)
Example refuted_outside_domain :
  ~ dom [] (TPtr TAny) (GPtr (Some (GAny None))) /\
  ty_ok RegPtrAny = false /\
  ~ dom [] (TMap TAny (TInt WNat))
      (GMap false [(GAny (Some (TArray 2 (TInt WNat), GList false [GInt 1; GInt 2])), GInt 5)]) /\
  ~ dom [] (TFunc [TInt WNat]) (GFunc None) /\
  ~ dom [] TAny (GAny (Some (TStruct [([65], true, TPtr TBool)], GStruct [GPtr None]))) /\
  ~ dom [] TAny (GAny (Some (TNamed [82] true [] (TInt WNat), GInt 5))).
Proof.
  split; [intros [H _]; discriminate H|]. split; [reflexivity|].
  split; [intros (_ & H & _); discriminate H|].
  split; [intros H; discriminate H|]. split; [intros H; vm_compute in H; discriminate H|].
  intros (H & _). discriminate H.
Qed.

Definition RoundTripFullP_main_theorems :=
  (roundtrip_full_all, roundtrip_full_partial_fuel, roundtrip_full_partial, roundtrip_full_partial_stable,
   roundtrip_full_refuted, roundtrip_full_ex_hyps, roundtrip_full_ex_run, roundtrip_full_ex_thm,
   refuted_outside_domain, equiv_normal, roundtrip_bytes_key_in_any).
Print Assumptions RoundTripFullP_main_theorems.
