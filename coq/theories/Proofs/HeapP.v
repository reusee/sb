(* Proofs/HeapP.v — C18: marshalling over pointer / slice / map / interface graphs
   (Model/Heap.v) terminates on every heap (cyclic or not) within threshold + |heap| + 2
   dereferences; a reference revisited on the current path once detection is on is reported
   as CyclicPointer; heaps without cycles (ranked heaps, shared nodes allowed) marshal
   successfully at any depth: the visited list is per path, so there are no false positives. *)
From Coq Require Import List NArith Arith Bool Lia ZifyBool ZifyNat ZifyN Permutation.
From SbModel Require Import Base.Tokens Model.Heap.
Import ListNotations.
Local Open Scope nat_scope.

Definition dom (h : heap) : list addr := map fst h.

Lemma dom_length h : length (dom h) = length h.
Proof. apply map_length. Qed.

Lemma hlookup_in h a cell : hlookup h a = Some cell -> In (a, cell) h.
Proof.
  induction h as [|[b w] r IH]; cbn [hlookup]; [discriminate|].
  destruct (N.eqb_spec a b) as [->|Hne].
  - intros [= ->]. now left.
  - intros H. right. auto.
Qed.

Lemma hlookup_dom h a cell : hlookup h a = Some cell -> In a (dom h).
Proof. intros H. apply hlookup_in in H. apply (in_map fst) in H. exact H. Qed.

Lemma dom_hlookup h a : In a (dom h) -> exists cell, hlookup h a = Some cell.
Proof.
  induction h as [|[b w] r IH]; cbn [dom map fst hlookup]; [intros []|].
  intros [Hb|Hr]; destruct (N.eqb_spec a b) as [->|Hne].
  - eauto.
  - congruence.
  - eauto.
  - auto.
Qed.

Lemma existsb_eqb a l : existsb (N.eqb a) l = true <-> In a l.
Proof.
  rewrite existsb_exists. split.
  - intros [x [Hx E]]. apply N.eqb_eq in E. now subst x.
  - intros Hin. exists a. split; [assumption|apply N.eqb_refl].
Qed.

Lemma hbind_fuel r k : r <> HOutOfFuel -> (forall ts, k ts <> HOutOfFuel) -> hbind r k <> HOutOfFuel.
Proof. destruct r; cbn [hbind]; auto. Qed.

(* the references reached from a value position without a dereference *)
Fixpoint refs (v : hval) : list addr :=
  match v with
  | VInt => []
  | VPtr a => match a with Some b => [b] | None => [] end
  | VSlice a => match a with Some b => [b] | None => [] end
  | VMap a => match a with Some b => [b] | None => [] end
  | VIface None => []
  | VIface (Some x) => refs x
  | VStruct fs => flat_map refs fs
  end.

Definition cell_refs (c : hcell) : list addr :=
  match c with CVal v => refs v | CItems l => flat_map refs l end.

Definition ranked (rk : addr -> nat) (h : heap) : Prop :=
  forall a cell, In (a, cell) h ->
  forall b, In b (cell_refs cell) -> In b (dom h) /\ rk b < rk a.

Definition above (rk : addr -> nat) (vis : list addr) (b : addr) : Prop :=
  forall x, In x vis -> rk b < rk x.

Definition good (h : heap) (rk : addr -> nat) (vis : list addr) (rs : list addr) : Prop :=
  forall b, In b rs -> In b (dom h) /\ above rk vis b.

Section WithThreshold.
Variable THRESH : N.

Lemma visited_deeper c : visited (deeper THRESH c) = visited c.
Proof. reflexivity. Qed.

(* a reference revisited on the current path is CyclicPointer *)
Theorem enter_revisit c a :
  detect (deeper THRESH c) = true -> In a (visited c) -> enter THRESH c a = None.
Proof.
  intros Hd Hin. unfold enter. rewrite Hd, visited_deeper.
  apply existsb_eqb in Hin. now rewrite Hin.
Qed.

Corollary walk_revisit_cyclic deref c a :
  detect (deeper THRESH c) = true -> In a (visited c) ->
  walk THRESH deref c (VPtr (Some a)) = HCyclic /\
  walk THRESH deref c (VSlice (Some a)) = HCyclic /\
  walk THRESH deref c (VMap (Some a)) = HCyclic.
Proof.
  intros Hd Hin. cbn [walk]. now rewrite (enter_revisit c a Hd Hin).
Qed.

Corollary mar_revisit_cyclic fuel h c a :
  detect (deeper THRESH c) = true -> In a (visited c) ->
  mar THRESH (S fuel) h c (VPtr (Some a)) = HCyclic.
Proof. intros Hd Hin. cbn [mar]. now apply walk_revisit_cyclic. Qed.

Lemma enter_none c a : enter THRESH c a = None ->
  detect (deeper THRESH c) = true /\ In a (visited c).
Proof.
  unfold enter. destruct (detect (deeper THRESH c)) eqn:Hd; [|discriminate]. rewrite visited_deeper.
  destruct (existsb (N.eqb a) (visited c)) eqn:E; [|discriminate].
  intros _. split; [reflexivity|]. apply existsb_eqb. exact E.
Qed.

Lemma enter_visited c a c' : enter THRESH c a = Some c' -> incl (visited c') (visited c ++ [a]).
Proof.
  unfold enter. destruct (detect (deeper THRESH c)).
  - destruct (existsb (N.eqb a) (visited (deeper THRESH c))); [discriminate|].
    intros [= <-]. apply incl_refl.
  - intros [= <-]. apply incl_appl, incl_refl.
Qed.

Hypothesis THRESH_pos : (0 < THRESH)%N.

(* potential: levels left before detection switches on, then addresses not yet on the path *)
Definition phi (h : heap) (c : hctx) : nat :=
  if detect c then length h - length (visited c)
  else (N.to_nat THRESH - N.to_nat (depth c)) + length h + 1.

Definition inv (h : heap) (c : hctx) : Prop :=
  if detect c then NoDup (visited c) /\ incl (visited c) (dom h)
  else (depth c < THRESH)%N /\ visited c = [].

Lemma inv0 h : inv h hctx0.
Proof. unfold inv, hctx0. cbn [detect depth visited]. split; [exact THRESH_pos|reflexivity]. Qed.

Lemma phi0 h : phi h hctx0 = N.to_nat THRESH + length h + 1.
Proof. unfold phi, hctx0. cbn [detect depth visited]. lia. Qed.

Lemma deeper_keeps h c : inv h c ->
  inv h (deeper THRESH c) /\ phi h (deeper THRESH c) <= phi h c.
Proof.
  unfold deeper, inv, phi. cbn [depth detect visited].
  destruct (detect c); cbn [orb]; intros Hinv.
  - split; [exact Hinv|lia].
  - destruct Hinv as [Hd Hv]. rewrite Hv.
    destruct (N.eqb_spec (depth c + 1) THRESH) as [He|Hne].
    + split; [split; [constructor|intros x []]|]. cbn [length]. lia.
    + split; [split; [lia|reflexivity]|]. lia.
Qed.

Lemma deeper_strict h c : inv h c -> detect (deeper THRESH c) = false ->
  phi h (deeper THRESH c) < phi h c.
Proof.
  unfold deeper, inv, phi. cbn [depth detect visited].
  destruct (detect c); cbn [orb]; intros Hinv Hd; [discriminate|].
  rewrite Hd. destruct Hinv as [Hlt _]. lia.
Qed.

Lemma enter_progress h c a c' : inv h c -> In a (dom h) -> enter THRESH c a = Some c' ->
  inv h c' /\ phi h c' < phi h c.
Proof.
  intros Hinv Hdom. destruct (deeper_keeps h c Hinv) as [Hinv1 Hphi1].
  unfold enter. destruct (detect (deeper THRESH c)) eqn:Hd.
  - destruct (existsb (N.eqb a) (visited (deeper THRESH c))) eqn:E; [discriminate|].
    intros [= <-]. assert (Ha : ~ In a (visited (deeper THRESH c))) by (rewrite <- existsb_eqb, E; discriminate).
    unfold inv in Hinv1. rewrite Hd in Hinv1. destruct Hinv1 as [Hnd Hincl].
    assert (Hnd' : NoDup (visited (deeper THRESH c) ++ [a])).
    { eapply Permutation_NoDup; [apply Permutation_cons_append|]. now constructor. }
    assert (Hincl' : incl (visited (deeper THRESH c) ++ [a]) (dom h)).
    { apply incl_app; [assumption|]. intros x [<-|[]]. assumption. }
    split.
    + unfold inv. cbn [detect visited]. split; assumption.
    + pose proof (NoDup_incl_length Hnd' Hincl') as Hlen.
      rewrite dom_length, app_length in Hlen. cbn [length] in Hlen.
      remember (phi h c) as p0 eqn:Ep0. clear Ep0.
      unfold phi in Hphi1 |- *. rewrite Hd in Hphi1. cbn [detect visited].
      rewrite visited_deeper in Hphi1, Hlen. rewrite app_length. cbn [length]. clear - Hphi1 Hlen. lia.
  - intros [= <-]. split; [assumption|]. now apply deeper_strict.
Qed.

(* Termination and success on ranked heaps are the same traversal with two readings of "fine":
   not out of fuel / a stream.  Q is kept by [hbind], so it is enough to have it where the
   traversal leaves the value: at each reference. *)
Section Walk.
Variable Q : hres -> Prop.
Hypothesis Q_ok : forall ks, Q (HOk ks).
Hypothesis Q_bind : forall r k, Q r -> (forall ts, Q (k ts)) -> Q (hbind r k).

(* the loops over struct fields and over the items of a slice or map *)
Lemma loop_Q (one : hval -> hres) (g : list N -> list N -> list N) l :
  Forall (fun x => Q (one x)) l ->
  Q ((fix go (l : list hval) : hres :=
        match l with
        | [] => HOk []
        | x :: r => hbind (one x) (fun a => hbind (go r) (fun b => HOk (g a b)))
        end) l).
Proof.
  induction 1 as [|x r Hx _ IH]; [apply Q_ok|].
  apply Q_bind; [exact Hx|]. intros a. apply Q_bind; [exact IH|]. intros b. apply Q_ok.
Qed.

Lemma walk_Q h n vis deref : forall v c,
  inv h c -> phi h c <= n -> visited c = vis ->
  (forall k a c0, In a (refs v) -> inv h c0 -> phi h c0 <= n -> visited c0 = vis ->
     Q (match enter THRESH c0 a with None => HCyclic | Some c' => deref k a c' end)) ->
  Q (walk THRESH deref c v).
Proof.
  induction v as [ |a|a|a| |x IHx|fs IH] using hval_ind2; intros c Hinv Hphi Hvis Hd; cbn [walk];
    try apply Q_ok.
  1-3: destruct a as [a|]; [|apply Q_ok]; apply Hd; auto; now left.
  - destruct (deeper_keeps h c Hinv) as [Hinv1 Hphi1]. apply IHx; [assumption|lia|exact Hvis|exact Hd].
  - apply Q_bind; [|intros body; apply Q_ok].
    apply (loop_Q (walk THRESH deref c) (fun a b => KString :: a ++ b)).
    rewrite Forall_forall in *. intros x Hx. apply (IH x Hx c Hinv Hphi Hvis).
    intros k a c0 Ha. apply Hd. cbn [refs]. apply in_flat_map. exists x. split; assumption.
Qed.
End Walk.

Lemma mar_no_oof h : forall fuel c v,
  inv h c -> phi h c < fuel -> mar THRESH fuel h c v <> HOutOfFuel.
Proof.
  induction fuel as [|f IH]; intros c v Hinv Hphi; [lia|]. cbn [mar].
  apply (walk_Q (fun r => r <> HOutOfFuel) ltac:(discriminate) hbind_fuel h f (visited c));
    [assumption|lia|reflexivity|].
  intros k a c0 _ Hinv0 Hphi0 _. destruct (enter THRESH c0 a) as [c'|] eqn:He; [|discriminate].
  destruct (hlookup h a) as [[v'|items]|] eqn:El; [| |discriminate];
    destruct (enter_progress h c0 a c' Hinv0 (hlookup_dom _ _ _ El) He) as [Hinv' Hlt].
  - apply IH; [assumption|lia].
  - apply hbind_fuel; [|intros b; destruct (k =? 2)%N; discriminate].
    apply (loop_Q (fun r => r <> HOutOfFuel) ltac:(discriminate) hbind_fuel (mar THRESH f h c')
             (fun a b => (if (k =? 2)%N then KString :: a else a) ++ b)).
    apply Forall_forall. intros x _. apply IH; [assumption|lia].
Qed.

(* C18: a fuel that depends only on the size of the heap suffices for every root value *)
Theorem mar_terminates h root :
  mar THRESH (N.to_nat THRESH + length h + 2) h hctx0 root <> HOutOfFuel.
Proof. apply mar_no_oof; [apply inv0|rewrite phi0; lia]. Qed.

(* no false positive: everything on the path ranks strictly above a *)
Lemma enter_ranked rk c a : above rk (visited c) a -> enter THRESH c a <> None.
Proof.
  intros Hab Hn. apply enter_none in Hn. destruct Hn as [_ Hin].
  specialize (Hab a Hin). lia.
Qed.

Lemma hbind_ok r k :
  (exists ks, r = HOk ks) -> (forall ts, exists ks, k ts = HOk ks) -> exists ks, hbind r k = HOk ks.
Proof. intros [ks ->] Hk. apply Hk. Qed.

Lemma mar_ok h rk : ranked rk h -> forall fuel c v,
  inv h c -> phi h c < fuel -> good h rk (visited c) (refs v) ->
  exists ks, mar THRESH fuel h c v = HOk ks.
Proof.
  intros Hrk. induction fuel as [|f IH]; intros c v Hinv Hphi Hg; [lia|]. cbn [mar].
  apply (walk_Q (fun r => exists ks, r = HOk ks) (fun ks => ex_intro _ ks eq_refl) hbind_ok h f (visited c));
    [assumption|lia|reflexivity|].
  intros k a c0 Ha Hinv0 Hphi0 Hvis. destruct (Hg a Ha) as [Hdom Hab].
  destruct (enter THRESH c0 a) as [c'|] eqn:He;
    [|exfalso; apply (enter_ranked rk c0 a); [rewrite Hvis; exact Hab|exact He]].
  destruct (dom_hlookup h a Hdom) as [cell El]. rewrite El.
  destruct (enter_progress h c0 a c' Hinv0 Hdom He) as [Hinv' Hlt].
  assert (Hcell : good h rk (visited c') (cell_refs cell)).
  { intros b Hb. destruct (Hrk a cell (hlookup_in _ _ _ El) b Hb) as [Hbd Hlt']. split; [assumption|].
    intros x Hx. apply (enter_visited c0 a c' He), in_app_or in Hx.
    destruct Hx as [Hx|[<-|[]]]; [|assumption]. rewrite Hvis in Hx. specialize (Hab x Hx). lia. }
  destruct cell as [v'|items].
  - apply IH; [assumption|lia|exact Hcell].
  - apply hbind_ok; [|intros b; destruct (k =? 2)%N; eauto].
    apply (loop_Q (fun r => exists ks, r = HOk ks) (fun ks => ex_intro _ ks eq_refl) hbind_ok (mar THRESH f h c')
             (fun a b => (if (k =? 2)%N then KString :: a else a) ++ b)).
    apply Forall_forall. intros x Hx. apply IH; [assumption|lia|].
    intros b Hb. apply Hcell. cbn [cell_refs]. apply in_flat_map. exists x. split; assumption.
Qed.

(* [h] may bind an address twice: [ranked] speaks about every binding, in particular about the
   first one, which is the one [hlookup] returns. *)
Theorem acyclic_ok h rk root :
  ranked rk h -> (forall b, In b (refs root) -> In b (dom h)) ->
  exists ks, mar THRESH (N.to_nat THRESH + length h + 2) h hctx0 root = HOk ks.
Proof.
  intros Hrk Hroot. apply (mar_ok h rk Hrk); [apply inv0|rewrite phi0; lia|].
  intros b Hb. split; [now apply Hroot|intros x []].
Qed.

End WithThreshold.

(* the instance of marshal.go: threshold 1000 *)
Lemma go_threshold_pos : (0 < go_threshold)%N.
Proof. reflexivity. Qed.

Corollary marshal_heap_terminates h root : marshal_heap h root <> HOutOfFuel.
Proof. unfold marshal_heap, heap_fuel. apply mar_terminates. exact go_threshold_pos. Qed.

Corollary marshal_heap_acyclic_ok h rk root :
  ranked rk h -> (forall b, In b (refs root) -> In b (dom h)) ->
  exists ks, marshal_heap h root = HOk ks.
Proof.
  intros Hrk Hroot. unfold marshal_heap, heap_fuel.
  apply (acyclic_ok go_threshold go_threshold_pos h rk); assumption.
Qed.

Local Open Scope N_scope.

(* a 2-cycle of pointers: detection switches on at depth 1000, the error follows *)
Definition ex_cycle2 : heap :=
  [(0, CVal (VStruct [VPtr (Some 1)])); (1, CVal (VStruct [VPtr (Some 0)]))].

Example ex_cycle2_cyclic : marshal_heap ex_cycle2 (VPtr (Some 0)) = HCyclic.
Proof. vm_compute. reflexivity. Qed.

Example ex_cycle2_small : mar 3 (3 + 2 + 2) ex_cycle2 hctx0 (VPtr (Some 0)) = HCyclic.
Proof. vm_compute. reflexivity. Qed.

Definition ex_self_slice : heap := [(0, CItems [VIface (Some (VSlice (Some 0)))])].

Example ex_self_slice_cyclic : marshal_heap ex_self_slice (VSlice (Some 0)) = HCyclic.
Proof. vm_compute. reflexivity. Qed.

Example ex_self_slice_small : mar 3 (3 + 1 + 2) ex_self_slice hctx0 (VSlice (Some 0)) = HCyclic.
Proof. vm_compute. reflexivity. Qed.

Example ex_map_cyclic :
  marshal_heap [(0, CItems [VPtr (Some 1)]); (1, CVal (VMap (Some 0)))] (VMap (Some 0)) = HCyclic.
Proof. vm_compute. reflexivity. Qed.

(* the hypotheses of enter_revisit are satisfiable *)
Example ex_enter_revisit : enter 3 (HC 5 true [0; 1]) 1 = None.
Proof. apply enter_revisit; [reflexivity|cbn [visited In]; auto]. Qed.

(* a DAG with a shared node (2 is reached along 0.2, 0.1.2 and through the slice 3) *)
Definition ex_dag : heap :=
  [(0, CVal (VStruct [VPtr (Some 1); VPtr (Some 2); VSlice (Some 3)]));
   (1, CVal (VStruct [VIface (Some (VPtr (Some 2)))]));
   (3, CItems [VPtr (Some 2); VPtr (Some 2); VMap None]);
   (2, CVal (VStruct [VInt; VPtr None]))].

Definition ex_rk (a : addr) : nat :=
  match a with 0 => 3%nat | 1 => 2%nat | 3 => 1%nat | _ => 0%nat end.

Lemma ex_dag_ranked : ranked ex_rk ex_dag.
Proof.
  intros a cell Hin b Hb. unfold ex_dag in Hin. cbn [In] in Hin.
  destruct Hin as [E|[E|[E|[E|[]]]]]; injection E as <- <-; cbn in Hb;
    repeat (destruct Hb as [<-|Hb]; [split; [cbn; tauto|cbn; lia]|]); destruct Hb.
Qed.

Lemma ex_dag_root : forall b, In b (refs (VPtr (Some 0))) -> In b (dom ex_dag).
Proof. intros b [<-|[]]. cbn. tauto. Qed.

(* with detection on from the first level the shared node is not mistaken for a cycle *)
Example ex_dag_ok_small : exists ks, mar 1 (1 + 4 + 2) ex_dag hctx0 (VPtr (Some 0)) = HOk ks.
Proof. vm_compute. eauto. Qed.

(* the same from acyclic_ok: its hypotheses hold of ex_dag *)
Example ex_dag_ok_small_thm : exists ks, mar 1 (N.to_nat 1 + length ex_dag + 2) ex_dag hctx0 (VPtr (Some 0)) = HOk ks.
Proof.
  apply (acyclic_ok 1 eq_refl ex_dag ex_rk); [exact ex_dag_ranked|exact ex_dag_root].
Qed.

Example ex_dag_ok : exists ks, marshal_heap ex_dag (VPtr (Some 0)) = HOk ks.
Proof. vm_compute. eauto. Qed.

Example ex_dag_ok_thm : exists ks, marshal_heap ex_dag (VPtr (Some 0)) = HOk ks.
Proof. apply (marshal_heap_acyclic_ok ex_dag ex_rk); [exact ex_dag_ranked|exact ex_dag_root]. Qed.

Example ex_dangling : marshal_heap ex_dag (VPtr (Some 7)) = HDangling.
Proof. vm_compute. reflexivity. Qed.

Print Assumptions mar_terminates.
Print Assumptions marshal_heap_terminates.
Print Assumptions enter_revisit.
Print Assumptions acyclic_ok.
Print Assumptions marshal_heap_acyclic_ok.
