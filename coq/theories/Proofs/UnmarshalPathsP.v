(* Proofs/UnmarshalPathsP.v — properties of the unmarshal model with explicit context paths
   (Model/UnmarshalPaths.v, C17):
     unmp_erase            forgetting paths and log gives the pure model [unm] back;
     unmp_shift            paths are relative to the context: a longer context path prefixes every
                           reported path;
     unmp_paths_extend     every tap path and the error path extend the context path;
     unmp_first_tap        the first tap is the call itself;
     unmp_roundtrip_paths  reading the canonical stream of a value back reports exactly the element
                           paths of Spec/UnmarshalPathsSpec.v.
   [unmp] and [unm] are one program read in two ways.  Section PStep writes that program once, over an
   interpretation of its three effects: a carrier [M] with [lift] (a step of the pure model raised
   under a path), [bnd] (sequencing) and [tap].  Section Morphism shows that the program commutes with
   every map between interpretations that respects the three ([pstep_hom]); erasure and shifting are
   two such maps, which gives [unmp_erase] and [unmp_shift]; [unmp_paths_extend] is [unmp_shift] at the
   empty context path, and [unmp_first_tap] is read off one unfolding.  Sections PSteps, PLoops and PRoundTrip follow
   the program on the canonical stream of a value ([unmp_roundtrip_paths]). *)
From Coq Require Import Lia ZifyBool ZifyNat ZifyN Arith.
From SbModel Require Import Spec.UnmarshalPathsSpec Proofs.MarshalP Proofs.UnmarshalP.
Local Open Scope N_scope.

(* One unfolding of [unmp], over [M], [lift], [bnd], [tap]: the loops as top-level fixpoints over
   the recursive call [prec] and the context path [p] (a section variable, as in the model the loops
   capture it).  [unmp_S] is proved by [reflexivity]; everything afterwards only uses [unmp_S], [unmp_O]
   and treats [unmp] as opaque.
   The interpretation is four section variables, not a record: behind a projection the kernel does
   not see [pbind] facing [pbind] in [unmp_S], unfolds it, and meets its continuation twice at every
   nesting level. *)

Section PStep.
Variable M : Type -> Type.
Variable lift : forall {A}, path -> res A -> M A.
Variable bnd : forall {A B}, M A -> (A -> M B) -> M B.
Variable tap : forall {A}, utap -> M A -> M A.
Variable pf : bytes -> N -> option N.
Variable o : copts.
Variable R : registry.
Variable prec : ty -> gval -> list token -> path -> M (gval * list token)%type.
Variable p : path.

Local Notation ok a := (lift p (Ok a)).
Local Notation err e q := (lift q (Err e)).
Local Notation fuel := (lift p OutOfFuel).

Fixpoint parr_loop (g : nat) (et : ty) (items : list gval) (idx : nat) (ts : list token) : M (list gval * list token) :=
  match g with
  | O => fuel
  | S g' =>
    let ep := p ++ [PIdx (Z.of_nat idx)] in
    match ts with
    | tk :: rest =>
        if kind tk =? KArrayEnd then ok (items, rest)
        else if Nat.leb (length items) idx then err ETooMany p
        else bnd (prec et (nth idx items (zero et)) ts ep) (fun r =>
             parr_loop g' et (set_nth idx (fst r) items) (S idx) (snd r))
    | [] =>
        if Nat.leb (length items) idx then err ETooMany p
        else bnd (prec et (nth idx items (zero et)) [] ep) (fun _ => err EEnd ep)
    end
  end.

Fixpoint pslice_loop (g : nat) (et : ty) (acc : list gval) (ts : list token) : M (list gval * list token) :=
  match g with
  | O => fuel
  | S g' =>
    let ep := p ++ [PIdx (Z.of_nat (length acc))] in
    match ts with
    | [] => bnd (prec et (zero et) [] ep) (fun _ => err EEnd ep)
    | tk :: rest =>
        if kind tk =? KArrayEnd then ok (acc, rest)
        else bnd (prec et (zero et) ts ep) (fun r => pslice_loop g' et (acc ++ [fst r]) (snd r))
    end
  end.

Fixpoint pstruct_loop (g : nat) (fs : list (bytes * bool * ty)) (depr : list bytes) (vals : list gval) (ts : list token)
  : M (list gval * list token) :=
  match g with
  | O => fuel
  | S g' =>
    match ts with
    | [] => err EEnd p
    | tk :: rest =>
        if kind tk =? KObjectEnd then ok (vals, rest)
        else bnd (prec TString (GStr []) ts p) (fun nr =>
             let name := match fst nr with GStr s => s | _ => [] end in
             match find_field name fs 0 with
             | Some (i, ft) =>
                 bnd (prec ft (nth i vals (zero ft)) (snd nr) (p ++ [PStr name])) (fun r =>
                 pstruct_loop g' fs depr (set_nth i (fst r) vals) (snd r))
             | None =>
                 if strict o && negb (existsb (bytes_eqb name) depr) then err EUnknownField p
                 else bnd (lift (p ++ [PStr name]) (skip_value 0 (snd nr))) (fun rest' => pstruct_loop g' fs depr vals rest')
             end)
    end
  end.

Fixpoint pnewstruct_loop (g : nat) (fs : list (bytes * bool * ty)) (vals : list gval) (ts : list token)
  : M (gval * list token) :=
  match g with
  | O => fuel
  | S g' =>
    match ts with
    | [] => err EEnd p
    | tk :: rest =>
        if kind tk =? KObjectEnd then ok (GAny (Some (TStruct fs, GStruct vals)), rest)
        else bnd (prec TString (GStr []) ts p) (fun nr =>
             let name := match fst nr with GStr s => s | _ => [] end in
             if negb (is_exported_ident name) then err EBadField p
             else if existsb (fun fd => bytes_eqb (fname fd) name) fs then err EDupField p
             else bnd (prec TAny (GAny None) (snd nr) (p ++ [PStr name])) (fun r =>
                  match fst r with
                  | GAny (Some (vt, v)) => pnewstruct_loop g' (fs ++ [(name, true, vt)]) (vals ++ [v]) (snd r)
                  | _ => err EEnd p
                  end))
    end
  end.

Fixpoint pmap_loop (g : nat) (kt vt : ty) (isnil : bool) (m : list (gval * gval)) (ts : list token)
  : M (gval * list token) :=
  match g with
  | O => fuel
  | S g' =>
    match ts with
    | [] => bnd (prec kt (zero kt) [] p) (fun _ => err EEnd p)
    | tk :: rest =>
        if kind tk =? KMapEnd then ok (GMap isnil m, rest)
        else bnd (prec kt (zero kt) ts p) (fun kr =>
             let key := iface_key kt (fst kr) in
             if negb (comparable_val key) then err EBadMapKey p
             else
             bnd (prec vt (zero vt) (snd kr) (p ++ [key_elem kt key])) (fun vr =>
             pmap_loop g' kt vt false (map_set key (fst vr) m) (snd vr)))
    end
  end.

Fixpoint pgenmap_loop (g : nat) (m : list (gval * gval)) (ts : list token) : M (gval * list token) :=
  match g with
  | O => fuel
  | S g' =>
    match ts with
    | [] => err EEnd p
    | tk :: rest =>
        if kind tk =? KMapEnd then ok (GAny (Some (TMap TAny TAny, GMap false m)), rest)
        else bnd (prec TAny (GAny None) ts p) (fun kr =>
             let key := to_comparable (fst kr) in
             match key with
             | GAny None => err EBadMapKey p
             | GAny (Some (kt, kv)) =>
                 if negb (comparable_ty kt) then err EBadMapKey p
                 else if match kv with GF64 b => f64_is_nan b | GF32 b => f32_is_nan b | _ => false end then err EBadMapKey p
                 else bnd (prec TAny (GAny None) (snd kr) (p ++ [key_elem TAny key])) (fun vr =>
                      pgenmap_loop g' (map_set key (fst vr) m) (snd vr))
             | _ => err EOther p
             end)
    end
  end.

Fixpoint ptuple_loop (g : nat) (outs : list ty) (tys : list ty) (vals : list gval) (ts : list token)
  : M (list ty * list gval * list ty * list token) :=
  match g with
  | O => fuel
  | S g' =>
    let ep := p ++ [PIdx (Z.of_nat (length tys))] in
    match ts with
    | [] => err EEnd p
    | tk :: rest =>
        if kind tk =? KTupleEnd then ok (outs, vals, tys, rest)
        else match outs with
             | ot :: outs' =>
                 bnd (prec ot (zero ot) ts ep) (fun r => ptuple_loop g' outs' (tys ++ [ot]) (vals ++ [fst r]) (snd r))
             | [] =>
                 bnd (prec TAny (GAny None) ts ep) (fun r =>
                 ptuple_loop g' [] (tys ++ [dyn_ty (fst r)]) (vals ++ [dyn_val (fst r)]) (snd r))
             end
    end
  end.

(* the body of a step, cut into pieces (as Proofs/UnmarshalP.v does for [unm]).  The bare 24 is
   reflect.String ([rk_of TString]): the target kind that the mismatch for time.Time names in unmarshal.go *)
Definition ptime_case (tk : token) (rest : list token) : M (gval * list token) :=
  if kind tk =? KString then
    match val tk with
    | VStr s => if valid_time_enc s then ok (GTime s, rest) else err EOther p
    | _ => err EOther p
    end
  else err (EMismatch (kind tk) 24) p.

Definition pnan_case (t ut : ty) (k : N) (rest : list token) : M (gval * list token) :=
  match ut with
  | TF32 => ok (GF32 f32_nan_bits, rest)
  | TF64 => ok (GF64 f64_nan_bits, rest)
  | TAny => ok (GAny (Some (TF64, GF64 f64_nan_bits)), rest)
  | _ => err (EMismatch k (rk_of t)) p
  end.

Definition pbytes_case (t ut : ty) (cur : gval) (tk : token) (rest : list token) : M (gval * list token) :=
  match ut, val tk with
  | TBytes, VBytes s => ok (GBytes false s, rest)
  | TByteArray n, VBytes s =>
      let old := bytes_of_gval cur in
      if Nat.ltb n (length s) then err ETooMany p
      else ok (GBytes false (firstn n s ++ skipn (length s) old), rest)
  | TAny, VBytes s => ok (GAny (Some (TBytes, GBytes false s)), rest)
  | _, _ => err (EMismatch (kind tk) (rk_of t)) p
  end.

Definition parray_case (t ut : ty) (cur : gval) (k : N) (rest : list token) : M (gval * list token) :=
  match ut with
  | TArray n e =>
      bnd (parr_loop (S (length rest)) e (items_of_gval cur) 0%nat rest) (fun r => ok (GList false (fst r), snd r))
  | TByteArray n =>
      bnd (parr_loop (S (length rest)) (TUint W8) (items_of_gval cur) 0%nat rest) (fun r => ok (GBytes false (to_bytes (fst r)), snd r))
  | TSlice e =>
      bnd (pslice_loop (S (length rest)) e (items_of_gval cur) rest) (fun r =>
      ok (GList (is_nil_container cur && match fst r with [] => true | _ => false end) (fst r), snd r))
  | TBytes =>
      bnd (pslice_loop (S (length rest)) (TUint W8) (items_of_gval cur) rest) (fun r =>
      ok (GBytes (is_nil_container cur && match fst r with [] => true | _ => false end) (to_bytes (fst r)), snd r))
  | TAny =>
      bnd (pslice_loop (S (length rest)) TAny [] rest) (fun r =>
      ok (GAny (Some (TSlice TAny, GList (match fst r with [] => true | _ => false end) (fst r))), snd r))
  | _ => err (EMismatch k (rk_of t)) p
  end.

Definition pobject_case (t ut : ty) (cur : gval) (k : N) (rest : list token) : M (gval * list token) :=
  match ut with
  | TStruct fs =>
      let vals := match cur with GStruct vs => vs | _ => map (fun fd => zero (snd fd)) fs end in
      bnd (pstruct_loop (S (length rest)) fs (depr_of t) vals rest) (fun r => ok (GStruct (fst r), snd r))
  | TAny => pnewstruct_loop (S (length rest)) [] [] rest
  | _ => err (EMismatch k (rk_of t)) p
  end.

Definition pmap_case (t ut : ty) (cur : gval) (k : N) (rest : list token) : M (gval * list token) :=
  match ut with
  | TMap kt vt =>
      let '(isnil, m) := match cur with GMap n m => (n, m) | _ => (true, []) end in
      pmap_loop (S (length rest)) kt vt isnil m rest
  | TAny => pgenmap_loop (S (length rest)) [] rest
  | _ => err (EMismatch k (rk_of t)) p
  end.

(* 50: unmarshalTuple's limit on the number of items (unmarshal.go: len(values) > 50) *)
Definition ptuple_case (t ut : ty) (k : N) (rest : list token) : M (gval * list token) :=
  match ut with
  | TFunc outs =>
      bnd (ptuple_loop (S (length rest)) outs [] [] rest) (fun r =>
      let '(outs', vals, tys, rest') := r in
      match outs' with
      | _ :: _ => err ETooFew p
      | [] =>
          if Nat.ltb 50 (length vals) then err ETooMany p
          else if Nat.eqb (length vals) (length outs) then ok (GFunc (Some vals), rest')
          else err EBadTuple p
      end)
  | TAny =>
      bnd (ptuple_loop (S (length rest)) [] [] [] rest) (fun r =>
      let '(_, vals, tys, rest') := r in
      if Nat.ltb 50 (length vals) then err ETooMany p
      else ok (GAny (Some (TFunc tys, GFunc (Some vals))), rest'))
  | _ => err (EMismatch k (rk_of t)) p
  end.

Definition ptypename_case (t ut : ty) (cur : gval) (tk : token) (rest : list token) : M (gval * list token) :=
  match ut, val tk with
  | TAny, VStr name =>
      match reg_lookup R name with
      | Some rt => bnd (prec rt (zero rt) rest p) (fun r => ok (GAny (Some (rt, fst r)), snd r))
      | None => prec t cur rest p
      end
  | _, _ => prec t cur rest p
  end.

Definition pvalue_case (t ut : ty) (tk : token) (rest : list token) : M (gval * list token) :=
  if (kind tk =? KRef) || (kind tk =? KLiteral) then err EBadKind p
  else match ut with
       | TAny => match any_of_token tk with Some d => ok (GAny (Some d), rest) | None => err EBadKind p end
       | _ => bnd (lift p (set_scalar t tk)) (fun v => ok (v, rest))
       end.

Definition pscalar_case (t ut : ty) (tk : token) (rest : list token) : M (gval * list token) :=
  match val tk with
  | VNone => err EBadKind p
  | _ => pvalue_case t ut tk rest
  end.

Definition pdispatch (t ut : ty) (cur : gval) (tk : token) (rest : list token) : M (gval * list token) :=
  let k := kind tk in
  if k =? KNaN then pnan_case t ut k rest
  else if k =? KBytes then pbytes_case t ut cur tk rest
  else if k =? KArray then parray_case t ut cur k rest
  else if k =? KObject then pobject_case t ut cur k rest
  else if k =? KMap then pmap_case t ut cur k rest
  else if k =? KTuple then ptuple_case t ut k rest
  else if k =? KTypeName then ptypename_case t ut cur tk rest
  else pscalar_case t ut tk rest.

Definition pptr_or_dispatch (t ut : ty) (cur : gval) (tk : token) (rest : list token) : M (gval * list token) :=
  match ut with
  | TPtr e => bnd (prec e (zero e) (tk :: rest) p) (fun r => ok (GPtr (Some (fst r)), snd r))
  | _ => pdispatch t ut cur tk rest
  end.

Definition pbody (t : ty) (cur : gval) (tk : token) (rest : list token) : M (gval * list token) :=
  if (kind tk =? KTypeName) && negb (match ptr_base t with TAny => true | _ => false end) then prec t cur rest p
  else
  match underlying t with
  | TTime => ptime_case tk rest
  | ut =>
    if kind tk =? KNil then ok (cur, rest)
    else if is_end_kind (kind tk) then err EUnexpEndTok p
    else pptr_or_dispatch t ut cur tk rest
  end.

Definition pstep (t : ty) (cur : gval) (ts : list token) : M (gval * list token) :=
  match ts with
  | [] => match underlying t with
          | TTime => err (EMismatch KInvalid 24) p
          | _ => err EEnd p
          end
  | tk0 :: rest =>
      tap (p, kind tk0, rk_of t) (bnd (lift p (conv_tok pf t tk0)) (fun tk => pbody t cur tk rest))
  end.

End PStep.

Lemma unmp_S pf f o R t cur ts p :
  unmp pf (S f) o R t cur ts p = pstep pr (@plift) (@pbind) (@ptap) pf o R (unmp pf f o R) p t cur ts.
Proof. reflexivity. Qed.

Lemma unmp_O pf o R t cur ts p : unmp pf 0 o R t cur ts p = pfuel.
Proof. reflexivity. Qed.

Global Opaque unmp.

Arguments unmp_S : clear implicits.

Section Morphism.
Variables M1 M2 : Type -> Type.
Variable lift1 : forall A, path -> res A -> M1 A.
Variable bnd1 : forall A B, M1 A -> (A -> M1 B) -> M1 B.
Variable tap1 : forall A, utap -> M1 A -> M1 A.
Variable lift2 : forall A, path -> res A -> M2 A.
Variable bnd2 : forall A B, M2 A -> (A -> M2 B) -> M2 B.
Variable tap2 : forall A, utap -> M2 A -> M2 A.

(* [h] maps outcomes, [phi] the paths they are raised under *)
Variable h : forall A, M1 A -> M2 A.
Variable phi : path -> path.
Arguments h {A}.
Hypothesis phi_app : forall p s, phi (p ++ s) = phi p ++ s.
Hypothesis h_lift : forall A p (r : res A), h (lift1 A p r) = lift2 A (phi p) r.
Hypothesis h_bnd : forall A B (r : M1 A) (k : A -> M1 B),
  h (bnd1 A B r k) = bnd2 A B (h r) (fun a => h (k a)).
Hypothesis h_tap : forall A p k rk (r : M1 A), h (tap1 A (p, k, rk) r) = tap2 A (phi p, k, rk) (h r).
Hypothesis bnd2_ext : forall A B (r : M2 A) (k k' : A -> M2 B),
  (forall a, k a = k' a) -> bnd2 A B r k = bnd2 A B r k'.

Variable pf : bytes -> N -> option N.
Variable o : copts.
Variable R : registry.
Variable prec1 : ty -> gval -> list token -> path -> M1 (gval * list token)%type.
Variable prec2 : ty -> gval -> list token -> path -> M2 (gval * list token)%type.
Hypothesis Hrec : forall t cur ts p, h (prec1 t cur ts p) = prec2 t cur ts (phi p).

Lemma h_seq {A B} (r1 : M1 A) r2 (k1 : A -> M1 B) k2 :
  h r1 = r2 -> (forall a, h (k1 a) = k2 a) -> h (bnd1 A B r1 k1) = bnd2 A B r2 k2.
Proof. intros <- Hk. rewrite h_bnd. apply bnd2_ext, Hk. Qed.

Lemma h_lift_at A p s (r : res A) : h (lift1 A (p ++ s) r) = lift2 A (phi p ++ s) r.
Proof. rewrite <- phi_app. apply h_lift. Qed.

Lemma Hrec_at t cur ts p s : h (prec1 t cur ts (p ++ s)) = prec2 t cur ts (phi p ++ s).
Proof. rewrite <- phi_app. apply Hrec. Qed.

Local Hint Resolve h_lift h_lift_at Hrec Hrec_at h_seq : hom.

Lemma parr_loop_hom p : forall g et items idx ts,
  h (parr_loop M1 lift1 bnd1 prec1 p g et items idx ts) = parr_loop M2 lift2 bnd2 prec2 (phi p) g et items idx ts.
Proof.
  induction g as [|g IH]; intros et items idx ts; cbn [parr_loop]; [apply h_lift|].
  destruct ts as [|tk rest].
  - destruct (Nat.leb (length items) idx); auto with hom.
  - destruct (kind tk =? KArrayEnd), (Nat.leb (length items) idx); auto with hom.
Qed.

Lemma pslice_loop_hom p : forall g et acc ts,
  h (pslice_loop M1 lift1 bnd1 prec1 p g et acc ts) = pslice_loop M2 lift2 bnd2 prec2 (phi p) g et acc ts.
Proof.
  induction g as [|g IH]; intros et acc ts; cbn [pslice_loop]; [apply h_lift|].
  destruct ts as [|tk rest]; [|destruct (kind tk =? KArrayEnd)]; auto with hom.
Qed.

Lemma pstruct_loop_hom p : forall g fs depr vals ts,
  h (pstruct_loop M1 lift1 bnd1 o prec1 p g fs depr vals ts) = pstruct_loop M2 lift2 bnd2 o prec2 (phi p) g fs depr vals ts.
Proof.
  induction g as [|g IH]; intros fs depr vals ts; cbn [pstruct_loop]; [apply h_lift|].
  destruct ts as [|tk rest]; [apply h_lift|].
  destruct (kind tk =? KObjectEnd); [apply h_lift|].
  apply h_seq; [apply Hrec|intros nr]. cbv zeta.
  destruct (find_field _ fs 0) as [[i ft]|]; [|destruct (strict o && _)]; auto with hom.
Qed.

Lemma pnewstruct_loop_hom p : forall g fs vals ts,
  h (pnewstruct_loop M1 lift1 bnd1 prec1 p g fs vals ts) = pnewstruct_loop M2 lift2 bnd2 prec2 (phi p) g fs vals ts.
Proof.
  induction g as [|g IH]; intros fs vals ts; cbn [pnewstruct_loop]; [apply h_lift|].
  destruct ts as [|tk rest]; [apply h_lift|].
  destruct (kind tk =? KObjectEnd); [apply h_lift|].
  apply h_seq; [apply Hrec|intros nr]. cbv zeta.
  destruct (negb _); [apply h_lift|].
  destruct (existsb _ fs); [apply h_lift|].
  apply h_seq; [apply Hrec_at|intros r].
  destruct (fst r) as [| | | | | | | | | | |[[vt v]|]| |]; auto with hom.
Qed.

Lemma pmap_loop_hom p : forall g kt vt isnil m ts,
  h (pmap_loop M1 lift1 bnd1 prec1 p g kt vt isnil m ts) = pmap_loop M2 lift2 bnd2 prec2 (phi p) g kt vt isnil m ts.
Proof.
  induction g as [|g IH]; intros kt vt isnil m ts; cbn [pmap_loop]; [apply h_lift|].
  destruct ts as [|tk rest]; [auto with hom|].
  destruct (kind tk =? KMapEnd); [apply h_lift|].
  apply h_seq; [apply Hrec|intros kr]. cbv zeta.
  destruct (negb _); auto with hom.
Qed.

Lemma pgenmap_loop_hom p : forall g m ts,
  h (pgenmap_loop M1 lift1 bnd1 prec1 p g m ts) = pgenmap_loop M2 lift2 bnd2 prec2 (phi p) g m ts.
Proof.
  induction g as [|g IH]; intros m ts; cbn [pgenmap_loop]; [apply h_lift|].
  destruct ts as [|tk rest]; [apply h_lift|].
  destruct (kind tk =? KMapEnd); [apply h_lift|].
  apply h_seq; [apply Hrec|intros kr]. cbv zeta.
  destruct (to_comparable (fst kr)) as [| | | | | | | | | | |[[kt kv]|]| |]; try apply h_lift.
  destruct (negb _); [apply h_lift|].
  destruct (match kv with GF64 b => _ | _ => _ end); auto with hom.
Qed.

Lemma ptuple_loop_hom p : forall g outs tys vals ts,
  h (ptuple_loop M1 lift1 bnd1 prec1 p g outs tys vals ts) = ptuple_loop M2 lift2 bnd2 prec2 (phi p) g outs tys vals ts.
Proof.
  induction g as [|g IH]; intros outs tys vals ts; cbn [ptuple_loop]; [apply h_lift|].
  destruct ts as [|tk rest]; [apply h_lift|].
  destruct (kind tk =? KTupleEnd), outs; auto with hom.
Qed.

Local Hint Resolve parr_loop_hom pslice_loop_hom pstruct_loop_hom pnewstruct_loop_hom
  pmap_loop_hom pgenmap_loop_hom ptuple_loop_hom : hom.

(* the per-kind cases: every branch is a [lift], a recursive call, or a loop followed by a [lift] *)
Lemma pnan_case_hom p t ut k rest :
  h (pnan_case M1 lift1 p t ut k rest) = pnan_case M2 lift2 (phi p) t ut k rest.
Proof. destruct ut; apply h_lift. Qed.

Lemma pbytes_case_hom p t ut cur tk rest :
  h (pbytes_case M1 lift1 p t ut cur tk rest) = pbytes_case M2 lift2 (phi p) t ut cur tk rest.
Proof.
  unfold pbytes_case. destruct ut; auto with hom; destruct (val tk); auto with hom.
  destruct (Nat.ltb _ _); apply h_lift.
Qed.

Lemma parray_case_hom p t ut cur k rest :
  h (parray_case M1 lift1 bnd1 prec1 p t ut cur k rest) = parray_case M2 lift2 bnd2 prec2 (phi p) t ut cur k rest.
Proof. unfold parray_case. destruct ut; auto with hom. Qed.

Lemma pobject_case_hom p t ut cur k rest :
  h (pobject_case M1 lift1 bnd1 o prec1 p t ut cur k rest) = pobject_case M2 lift2 bnd2 o prec2 (phi p) t ut cur k rest.
Proof. unfold pobject_case. destruct ut; auto with hom. Qed.

Lemma pmap_case_hom p t ut cur k rest :
  h (pmap_case M1 lift1 bnd1 prec1 p t ut cur k rest) = pmap_case M2 lift2 bnd2 prec2 (phi p) t ut cur k rest.
Proof.
  unfold pmap_case. destruct ut; auto with hom.
  destruct (match cur with GMap n m => _ | _ => _ end) as [isnil m]. apply pmap_loop_hom.
Qed.

Lemma ptuple_case_hom p t ut k rest :
  h (ptuple_case M1 lift1 bnd1 prec1 p t ut k rest) = ptuple_case M2 lift2 bnd2 prec2 (phi p) t ut k rest.
Proof.
  unfold ptuple_case.
  destruct ut; auto with hom; (apply h_seq; [apply ptuple_loop_hom|intros [[[outs' vals] tys] rest']]).
  - destruct (Nat.ltb 50 (length vals)); apply h_lift.
  - destruct outs'; [|apply h_lift]. destruct (Nat.ltb 50 (length vals)); [apply h_lift|]. destruct (Nat.eqb _ _); apply h_lift.
Qed.

Lemma ptypename_case_hom p t ut cur tk rest :
  h (ptypename_case M1 lift1 bnd1 R prec1 p t ut cur tk rest) = ptypename_case M2 lift2 bnd2 R prec2 (phi p) t ut cur tk rest.
Proof.
  unfold ptypename_case. destruct ut; auto with hom. destruct (val tk); auto with hom.
  destruct (reg_lookup R _); auto with hom.
Qed.

Lemma pvalue_case_hom p t ut tk rest :
  h (pvalue_case M1 lift1 bnd1 p t ut tk rest) = pvalue_case M2 lift2 bnd2 (phi p) t ut tk rest.
Proof.
  unfold pvalue_case. destruct (_ || _); [apply h_lift|].
  destruct ut; auto with hom. destruct (any_of_token tk); apply h_lift.
Qed.

Lemma pdispatch_hom p t ut cur tk rest :
  h (pdispatch M1 lift1 bnd1 o R prec1 p t ut cur tk rest) =
  pdispatch M2 lift2 bnd2 o R prec2 (phi p) t ut cur tk rest.
Proof.
  unfold pdispatch. cbv zeta.
  destruct (kind tk =? KNaN); [apply pnan_case_hom|].
  destruct (kind tk =? KBytes); [apply pbytes_case_hom|].
  destruct (kind tk =? KArray); [apply parray_case_hom|].
  destruct (kind tk =? KObject); [apply pobject_case_hom|].
  destruct (kind tk =? KMap); [apply pmap_case_hom|].
  destruct (kind tk =? KTuple); [apply ptuple_case_hom|].
  destruct (kind tk =? KTypeName); [apply ptypename_case_hom|].
  unfold pscalar_case. destruct (val tk); auto using pvalue_case_hom with hom.
Qed.

Theorem pstep_hom p t cur ts :
  h (pstep M1 lift1 bnd1 tap1 pf o R prec1 p t cur ts) = pstep M2 lift2 bnd2 tap2 pf o R prec2 (phi p) t cur ts.
Proof.
  unfold pstep. destruct ts as [|tk0 rest]; [destruct (underlying t); apply h_lift|].
  rewrite h_tap. f_equal. apply h_seq; [apply h_lift|intros tk].
  unfold pbody. destruct (_ && _); [apply Hrec|].
  assert (Hd : forall ut,
    h (if kind tk =? KNil then lift1 _ p (Ok (cur, rest))
       else if is_end_kind (kind tk) then lift1 _ p (Err EUnexpEndTok)
       else pptr_or_dispatch M1 lift1 bnd1 o R prec1 p t ut cur tk rest) =
    (if kind tk =? KNil then lift2 _ (phi p) (Ok (cur, rest))
     else if is_end_kind (kind tk) then lift2 _ (phi p) (Err EUnexpEndTok)
     else pptr_or_dispatch M2 lift2 bnd2 o R prec2 (phi p) t ut cur tk rest)).
  { intros ut. destruct (kind tk =? KNil); [apply h_lift|]. destruct (is_end_kind (kind tk)); [apply h_lift|].
    unfold pptr_or_dispatch. destruct ut; try apply pdispatch_hom.
    apply h_seq; [apply Hrec|intros r; apply h_lift]. }
  destruct (underlying t); try apply Hd.
  unfold ptime_case. destruct (kind tk =? KString); auto with hom. destruct (val tk); auto with hom. destruct (valid_time_enc _); apply h_lift.
Qed.

End Morphism.

Lemma erase_pbind {A B} (r : pr A) (k : A -> pr B) :
  erase (pbind r k) = bind (erase r) (fun a => erase (k a)).
Proof. destruct r as [[a|e ep|] l]; reflexivity. Qed.

Lemma erase_plift {A} (p : path) (r : res A) : erase (plift p r) = r.
Proof. destruct r; reflexivity. Qed.

Lemma erase_ptap {A} (e : utap) (r : pr A) : erase (ptap e r) = erase r.
Proof. reflexivity. Qed.

Lemma bind_ext {A B} (r : res A) (k1 k2 : A -> res B) :
  (forall a, k1 a = k2 a) -> bind r k1 = bind r k2.
Proof. intros Hk. destruct r; cbn [bind]; [apply Hk|reflexivity|reflexivity]. Qed.

Lemma erase_ok {A} (r : pr A) (x : A) : erase r = Ok x -> fst r = POk x.
Proof. unfold erase. destruct (fst r); [intros [= ->]; reflexivity|discriminate|discriminate]. Qed.

(* the pure step of Proofs/UnmarshalP.v is the same program, paths and taps ignored *)
Lemma ustep_plain pf o R (rec : rec_t) p t cur ts :
  ustep pf o R rec t cur ts =
  pstep res (fun _ _ r => r) (@bind) (fun _ _ r => r) pf o R (fun t cur ts _ => rec t cur ts) p t cur ts.
Proof. reflexivity. Qed.

Theorem unmp_erase : forall pf f o R t cur ts p,
  erase (unmp pf f o R t cur ts p) = unm pf f o R t cur ts.
Proof.
  intros pf f o R. induction f as [|f IH]; intros t cur ts p.
  - rewrite unmp_O, unm_O. reflexivity.
  - rewrite unmp_S, unm_S, (ustep_plain pf o R _ p).
    apply (pstep_hom pr res _ _ _ _ _ _ (@erase) (fun q => q)); intros.
    + reflexivity.
    + apply erase_plift.
    + apply erase_pbind.
    + apply erase_ptap.
    + apply bind_ext. assumption.
    + apply IH.
Qed.

(* the second map: [shift_res] and [shift_log] of the spec as one function on outcomes *)
Definition shiftpr {A} (q : path) (r : pr A) : pr A := (shift_res q (fst r), shift_log q (snd r)).

Lemma shiftpr_pbind {A B} q (r : pr A) (k : A -> pr B) :
  shiftpr q (pbind r k) = pbind (shiftpr q r) (fun a => shiftpr q (k a)).
Proof.
  destruct r as [[a|e ep|] l]; unfold shiftpr; cbn [pbind fst snd shift_res]; try reflexivity.
  unfold shift_log. rewrite map_app. reflexivity.
Qed.

Lemma shiftpr_plift {A} q p (r : res A) : shiftpr q (plift p r) = plift (q ++ p) r.
Proof. destruct r; reflexivity. Qed.

Lemma shiftpr_ptap {A} q p k rk (r : pr A) : shiftpr q (ptap (p, k, rk) r) = ptap (q ++ p, k, rk) (shiftpr q r).
Proof. reflexivity. Qed.

Lemma pbind_ext {A B} (r : pr A) (k1 k2 : A -> pr B) :
  (forall a, k1 a = k2 a) -> pbind r k1 = pbind r k2.
Proof. intros Hk. destruct r as [[a|e ep|] l]; cbn [pbind]; [rewrite Hk; reflexivity|reflexivity|reflexivity]. Qed.

Theorem unmp_shift : forall pf f o R t cur ts q p,
  unmp pf f o R t cur ts (q ++ p) =
  (shift_res q (fst (unmp pf f o R t cur ts p)), shift_log q (snd (unmp pf f o R t cur ts p))).
Proof.
  intros pf f o R t cur ts q p. symmetry. fold (shiftpr q (unmp pf f o R t cur ts p)).
  revert t cur ts p. induction f as [|f IH]; intros t cur ts p.
  - rewrite !unmp_O. reflexivity.
  - rewrite !unmp_S.
    apply (pstep_hom pr pr _ _ _ _ _ _ (fun A => @shiftpr A q) (app q)); intros.
    + apply app_assoc.
    + apply shiftpr_plift.
    + apply shiftpr_pbind.
    + apply shiftpr_ptap.
    + apply pbind_ext. assumption.
    + apply IH.
Qed.

Corollary unmp_paths_extend : forall pf f o R t cur ts p,
  Forall (fun e => exists s, fst (fst e) = p ++ s) (snd (unmp pf f o R t cur ts p)) /\
  (forall e ep, fst (unmp pf f o R t cur ts p) = PErr e ep -> exists s, ep = p ++ s).
Proof.
  intros pf f o R t cur ts p.
  pose proof (unmp_shift pf f o R t cur ts p []) as H. rewrite app_nil_r in H. rewrite H.
  cbn [fst snd]. split.
  - unfold shift_log. apply Forall_forall. intros e He. apply in_map_iff in He.
    destruct He as (e0 & <- & _). cbn [fst snd]. eexists. reflexivity.
  - intros e ep He. destruct (fst (unmp pf f o R t cur ts [])) as [a|e0 ep0|]; cbn [shift_res] in He; try discriminate.
    injection He as _ <-. eexists. reflexivity.
Qed.

Theorem unmp_first_tap : forall pf f o R t cur tk rest p,
  exists l, snd (unmp pf (S f) o R t cur (tk :: rest) p) = (p, kind tk, rk_of t) :: l.
Proof. intros. rewrite unmp_S. unfold pstep, ptap. cbn [snd]. eexists. reflexivity. Qed.

Local Notation tarr_loop := (parr_loop pr (@plift) (@pbind)).
Local Notation tslice_loop := (pslice_loop pr (@plift) (@pbind)).
Local Notation tstruct_loop := (pstruct_loop pr (@plift) (@pbind)).

Definition pres_is {A} (r : pr A) (a : A) (L : list (path * N)) : Prop :=
  fst r = POk a /\ log_paths (snd r) = L.

Lemma log_pbind {A B} (r : pr A) (k : A -> pr B) a L :
  pres_is r a L -> log_paths (snd (pbind r k)) = L ++ log_paths (snd (k a)).
Proof.
  destruct r as [r0 l]. intros [H1 H2]. cbn [fst snd] in H1, H2. subst r0 L.
  cbn [pbind snd]. apply map_app.
Qed.

Lemma log_tap_pbind_pok {A B} e (r : pr A) (g : A -> B) :
  snd (ptap e (pbind r (fun x => pok (g x)))) = e :: snd r.
Proof. destruct r as [[a|e0 ep|] l]; cbn [ptap pbind pok fst snd]; rewrite ?app_nil_r; reflexivity. Qed.

Lemma pbind_pok {A B} (a : A) (k : A -> pr B) : pbind (pok a) k = k a.
Proof. unfold pbind, pok. destruct (k a) as [x l]. reflexivity. Qed.

(* the local fixpoints of [upaths] under names of their own: transcriptions, tied to [upaths] by the
   [reflexivity] equations below, so a change to the spec breaks an equation, not a copy silently.
   In [ups], 24 is reflect.String: unmarshal.go reads a field's name into a Go string, under the struct's path *)
Definition upl (et : ty) (p : path) : list gval -> nat -> list (path * N) :=
  fix go (l : list gval) (i : nat) : list (path * N) :=
    match l with
    | [] => []
    | x :: r => upaths et x (p ++ [PIdx (Z.of_nat i)]) ++ go r (S i)
    end.

Definition ups (p : path) : list gval -> list (bytes * bool * ty) -> list (path * N) :=
  fix go (l : list gval) (f : list (bytes * bool * ty)) : list (path * N) :=
    match l, f with
    | x :: r, fd :: fr =>
        if negb (fexported fd) then go r fr
        else (p, 24) :: upaths (snd fd) x (p ++ [PStr (fname fd)]) ++ go r fr
    | _, _ => []
    end.

Lemma upaths_list t n items p : upaths t (GList n items) p = (p, rk_of t) :: upl (elem_ty t) p items 0.
Proof. reflexivity. Qed.
Lemma upaths_struct t vals p : upaths t (GStruct vals) p = (p, rk_of t) :: ups p vals (fields_of t).
Proof. reflexivity. Qed.
Lemma upaths_ptr t x p : upaths t (GPtr (Some x)) p = (p, rk_of t) :: upaths (pointee_ty t) x p.
Proof. reflexivity. Qed.
Lemma ups_cons p x l fd fs :
  ups p (x :: l) (fd :: fs) =
  if negb (fexported fd) then ups p l fs
  else (p, 24) :: upaths (snd fd) x (p ++ [PStr (fname fd)]) ++ ups p l fs.
Proof. reflexivity. Qed.

(* no registered type: no TypeName token *)
Lemma noreg_prefix t : noreg_ty t = true -> reg_prefix t = [].
Proof.
  destruct t as [ | | | | | | | | | | | | | | | |n r d u| ]; try reflexivity.
  destruct r; [cbn [noreg_ty negb andb]; discriminate|reflexivity].
Qed.

Lemma noreg_underlying t : noreg_ty t = true -> noreg_ty (underlying t) = true.
Proof.
  induction t; cbn [underlying]; try (intros H; exact H).
  cbn [noreg_ty]. intros H. apply andb_true_iff in H. apply IHt, H.
Qed.

Definition leaf_kind (k : N) : bool :=
  negb (k =? KLiteral) && negb (k =? KTypeName) && negb (k =? KArray) && negb (k =? KObject) &&
  negb (k =? KMap) && negb (k =? KTuple).

Lemma leaf_kind_head k : leaf_kind k = true -> (k =? KLiteral) = false /\ (k =? KTypeName) = false.
Proof. unfold leaf_kind. destruct (k =? KLiteral), (k =? KTypeName); try discriminate. split; reflexivity. Qed.

Section PSteps.
Variable pf : bytes -> N -> option N.
Variable o : copts.
Variable R : registry.

Ltac pstep_rec f :=
  rewrite (unmp_S pf f o R); generalize (unmp pf f o R); intros prec; unfold pstep, conv_tok.

Lemma pvalue_case_log p t ut tk rest : snd (pvalue_case pr (@plift) (@pbind) p t ut tk rest) = [].
Proof.
  unfold pvalue_case. destruct (_ || _); [reflexivity|].
  destruct ut; try (destruct (set_scalar t tk); reflexivity). destruct (any_of_token tk); reflexivity.
Qed.

(* a token that opens no composite and is no literal / type name, against a non-pointer target:
   no nested call, so nothing is logged after the call's own tap *)
Lemma pdispatch_leaf_log prec p t ut cur tk rest :
  leaf_kind (kind tk) = true -> snd (pdispatch pr (@plift) (@pbind) o R prec p t ut cur tk rest) = [].
Proof.
  unfold leaf_kind, pdispatch. cbv zeta. intros Hk.
  destruct (kind tk =? KLiteral); [discriminate Hk|].
  destruct (kind tk =? KTypeName); [discriminate Hk|].
  destruct (kind tk =? KArray); [discriminate Hk|].
  destruct (kind tk =? KObject); [discriminate Hk|].
  destruct (kind tk =? KMap); [discriminate Hk|].
  destruct (kind tk =? KTuple); [discriminate Hk|].
  destruct (kind tk =? KNaN); [destruct ut; reflexivity|].
  destruct (kind tk =? KBytes).
  - unfold pbytes_case. destruct ut; try reflexivity; destruct (val tk); try reflexivity.
    destruct (Nat.ltb _ _); reflexivity.
  - unfold pscalar_case. destruct (val tk); try reflexivity; apply pvalue_case_log.
Qed.

Lemma pbody_leaf_log prec p t cur tk rest :
  leaf_kind (kind tk) = true -> (forall e, underlying t <> TPtr e) ->
  snd (pbody pr (@plift) (@pbind) o R prec p t cur tk rest) = [].
Proof.
  intros Hk Hnp. unfold pbody.
  rewrite (proj2 (leaf_kind_head _ Hk)).
  cbn [andb].
  destruct (underlying t) eqn:Hut; try (exfalso; exact (Hnp _ eq_refl));
    try (destruct (kind tk =? KNil); [reflexivity|]; destruct (is_end_kind (kind tk)); [reflexivity|];
         apply pdispatch_leaf_log, Hk).
  unfold ptime_case. destruct (kind tk =? KString); [|reflexivity].
  destruct (val tk); try reflexivity. destruct (valid_time_enc _); reflexivity.
Qed.

Lemma unmp_leaf_log f t cur tk rest p :
  leaf_kind (kind tk) = true -> (forall e, underlying t <> TPtr e) ->
  snd (unmp pf (S f) o R t cur (tk :: rest) p) = [(p, kind tk, rk_of t)].
Proof.
  intros Hk Hnp. pstep_rec f.
  rewrite (proj1 (leaf_kind_head _ Hk)). cbn [plift]. rewrite pbind_pok. unfold ptap. cbn [snd].
  rewrite pbody_leaf_log by assumption. reflexivity.
Qed.

Lemma unmp_nil_log f t cur rest p :
  snd (unmp pf (S f) o R t cur (T KNil VNone :: rest) p) = [(p, KNil, rk_of t)].
Proof.
  pstep_rec f. cbn [kind val]. change (KNil =? KLiteral) with false. cbn [plift].
  rewrite pbind_pok. unfold ptap, pbody. cbn [snd kind]. change (KNil =? KTypeName) with false. cbn [andb].
  destruct (underlying t); reflexivity.
Qed.

Lemma unmp_ptr_step f t e cur tk rest p :
  underlying t = TPtr e -> head_ok tk -> (kind tk =? KTypeName) = false -> kind tk <> KNil ->
  unmp pf (S f) o R t cur (tk :: rest) p =
  ptap (p, kind tk, rk_of t)
       (pbind (unmp pf f o R e (zero e) (tk :: rest) p) (fun r => pok (GPtr (Some (fst r)), snd r))).
Proof.
  intros Hut [Hl He] Ht Hn. pstep_rec f. rewrite Hl. cbn [plift]. rewrite pbind_pok.
  unfold pbody. rewrite Ht, He. cbn [andb].
  apply N.eqb_neq in Hn. rewrite Hn, Hut. reflexivity.
Qed.

Lemma unmp_slice_step f t e cur rest p :
  underlying t = TSlice e ->
  unmp pf (S f) o R t cur (T KArray VNone :: rest) p =
  ptap (p, KArray, rk_of t)
       (pbind (tslice_loop (unmp pf f o R) p (S (length rest)) e (items_of_gval cur) rest) (fun r =>
          pok (GList (is_nil_container cur && match fst r with [] => true | _ => false end) (fst r), snd r))).
Proof.
  intros Hut. pstep_rec f. cbn [kind val]. change (KArray =? KLiteral) with false. cbn [plift].
  rewrite pbind_pok. unfold pbody. cbn [kind]. rewrite Hut. reflexivity.
Qed.

Lemma unmp_array_step f t k e cur rest p :
  underlying t = TArray k e ->
  unmp pf (S f) o R t cur (T KArray VNone :: rest) p =
  ptap (p, KArray, rk_of t)
       (pbind (tarr_loop (unmp pf f o R) p (S (length rest)) e (items_of_gval cur) 0%nat rest) (fun r =>
          pok (GList false (fst r), snd r))).
Proof.
  intros Hut. pstep_rec f. cbn [kind val]. change (KArray =? KLiteral) with false. cbn [plift].
  rewrite pbind_pok. unfold pbody. cbn [kind]. rewrite Hut. reflexivity.
Qed.

Lemma unmp_struct_step f t fs cur rest p :
  underlying t = TStruct fs ->
  unmp pf (S f) o R t cur (T KObject VNone :: rest) p =
  ptap (p, KObject, rk_of t)
       (pbind (tstruct_loop o (unmp pf f o R) p (S (length rest)) fs (depr_of t)
                 match cur with GStruct vs => vs | _ => map (fun fd => zero (snd fd)) fs end rest)
              (fun r => pok (GStruct (fst r), snd r))).
Proof.
  intros Hut. pstep_rec f. cbn [kind val]. change (KObject =? KLiteral) with false. cbn [plift].
  rewrite pbind_pok. unfold pbody. cbn [kind]. rewrite Hut. reflexivity.
Qed.

Lemma unmp_name f cur s rest p :
  unmp pf (S f) o R TString cur (T KString (VStr s) :: rest) p = (POk (GStr s, rest), [(p, KString, 24)]).
Proof. pstep_rec f. reflexivity. Qed.

End PSteps.

Section PLoops.
Variable o : copts.
Variable prec : ty -> gval -> list token -> path -> pr (gval * list token).

Definition pelem_ok (x : gval) : Prop :=
  forall ft a rest' p, wf_ty ft = true -> simple_ty ft = true -> noreg_ty ft = true ->
    has_type ft x = true -> no_ptr_to_nil x = true -> marshal default_opts ft x = Ok a ->
    pres_is (prec ft (zero ft) (a ++ rest') p) (normal ft x, rest') (upaths ft x p).

Lemma pslice_loop_log e p : wf_ty e = true -> simple_ty e = true -> noreg_ty e = true ->
  forall l, Forall pelem_ok l -> typed_list e l = true -> forallb no_ptr_to_nil l = true ->
  forall body, marshal_list default_opts e l = Ok body ->
  forall g acc rest, (length l < g)%nat ->
  log_paths (snd (tslice_loop prec p g e acc (body ++ T KArrayEnd VNone :: rest))) = upl e p l (length acc).
Proof.
  intros Hwf Hs Hnr. induction 1 as [|x l Hx _ IH]; intros Hty Hnp body Hm g acc rest Hg.
  - injection Hm as <-. destruct g as [|g]; [clear - Hg; cbn in Hg; lia|]. reflexivity.
  - apply marshal_list_cons_ok in Hm. destruct Hm as (a & b & Ha & Hb & ->).
    rewrite typed_list_cons in Hty.
    apply andb_true_iff in Hty. destruct Hty as [Htx Htl].
    cbn [forallb] in Hnp. apply andb_true_iff in Hnp. destruct Hnp as [Hnx Hnl].
    destruct (marshal_head _ _ _ _ Htx Hs Ha) as (tk & r & -> & Hh & _).
    destruct g as [|g]; [clear - Hg; cbn [length] in Hg; lia|]. rewrite <- app_assoc. cbn [app pslice_loop].
    rewrite (not_end_kind_neq _ KArrayEnd (proj2 Hh) eq_refl).
    change (tk :: r ++ b ++ T KArrayEnd VNone :: rest) with ((tk :: r) ++ b ++ T KArrayEnd VNone :: rest).
    rewrite (log_pbind _ _ _ _ (Hx e (tk :: r) _ _ Hwf Hs Hnr Htx Hnx Ha)). cbn [fst snd].
    rewrite (IH Htl Hnl b Hb g) by (clear - Hg; cbn [length] in Hg; lia).
    rewrite app_length, Nat.add_1_r. reflexivity.
Qed.

Lemma parr_loop_log e p : wf_ty e = true -> simple_ty e = true -> noreg_ty e = true ->
  forall l, Forall pelem_ok l -> typed_list e l = true -> forallb no_ptr_to_nil l = true ->
  forall body, marshal_list default_opts e l = Ok body ->
  forall g done rest, (length l < g)%nat ->
  log_paths (snd (tarr_loop prec p g e (done ++ repeat (zero e) (length l)) (length done)
                    (body ++ T KArrayEnd VNone :: rest))) = upl e p l (length done).
Proof.
  intros Hwf Hs Hnr. induction 1 as [|x l Hx _ IH]; intros Hty Hnp body Hm g done rest Hg.
  - injection Hm as <-. destruct g as [|g]; [clear - Hg; cbn in Hg; lia|]. reflexivity.
  - apply marshal_list_cons_ok in Hm. destruct Hm as (a & b & Ha & Hb & ->).
    rewrite typed_list_cons in Hty.
    apply andb_true_iff in Hty. destruct Hty as [Htx Htl].
    cbn [forallb] in Hnp. apply andb_true_iff in Hnp. destruct Hnp as [Hnx Hnl].
    destruct (marshal_head _ _ _ _ Htx Hs Ha) as (tk & r & -> & Hh & _).
    destruct g as [|g]; [clear - Hg; cbn [length] in Hg; lia|]. rewrite <- app_assoc. cbn [app parr_loop length repeat].
    rewrite (not_end_kind_neq _ KArrayEnd (proj2 Hh) eq_refl).
    assert (Hlen : Nat.leb (length (done ++ zero e :: repeat (zero e) (length l))) (length done) = false).
    { apply Nat.leb_gt. rewrite app_length. cbn [length]. clear. lia. }
    rewrite Hlen, nth_app_here.
    change (tk :: r ++ b ++ T KArrayEnd VNone :: rest) with ((tk :: r) ++ b ++ T KArrayEnd VNone :: rest).
    rewrite (log_pbind _ _ _ _ (Hx e (tk :: r) _ _ Hwf Hs Hnr Htx Hnx Ha)). cbn [fst snd].
    rewrite set_nth_app.
    specialize (IH Htl Hnl b Hb g (done ++ [normal e x]) rest ltac:(clear - Hg; cbn [length] in Hg; lia)).
    rewrite <- app_assoc, app_length, Nat.add_1_r in IH. cbn [app length] in IH.
    rewrite IH. reflexivity.
Qed.

Hypothesis Hname : forall s cur rest' p,
  pres_is (prec TString cur (T KString (VStr s) :: rest') p) (GStr s, rest') [(p, 24)].

Lemma pstruct_loop_log p : forall l, Forall pelem_ok l ->
  forall fsall pre fs donev body, fsall = pre ++ fs -> names_nodup fsall = true ->
  forallb (fun f => wf_bytesb (fname f) && wf_ty (snd f)) fs = true ->
  forallb (fun f => simple_ty (snd f)) fs = true ->
  forallb (fun f => noreg_ty (snd f)) fs = true ->
  typed_fields l fs = true -> forallb no_ptr_to_nil l = true ->
  marshal_fields default_opts l fs = Ok body -> length donev = length pre ->
  forall g depr rest, (length body < g)%nat ->
  log_paths (snd (tstruct_loop o prec p g fsall depr (donev ++ map (fun fd => zero (snd fd)) fs)
                    (body ++ T KObjectEnd VNone :: rest))) = ups p l fs.
Proof.
  induction 1 as [|x l Hx _ IH]; intros fsall pre fs donev body Hall Hnd Hwf Hs Hnr Hty Hnp Hm Hlen g depr rest Hg.
  - destruct fs as [|fd fs]; [|discriminate Hty]. injection Hm as <-.
    destruct g as [|g]; [clear - Hg; cbn in Hg; lia|]. reflexivity.
  - destruct fs as [|fd fs]; [discriminate Hty|].
    rewrite typed_fields_cons in Hty.
    apply andb_true_iff in Hty. destruct Hty as [Htx Htl].
    cbn [forallb] in Hnp, Hwf, Hs, Hnr.
    apply andb_true_iff in Hnp. destruct Hnp as [Hnx Hnl].
    apply andb_true_iff in Hwf. destruct Hwf as [Hwx Hwl]. apply andb_true_iff in Hwx. destruct Hwx as [_ Hwx].
    apply andb_true_iff in Hs. destruct Hs as [Hsx Hsl].
    apply andb_true_iff in Hnr. destruct Hnr as [Hnrx Hnrl].
    apply marshal_fields_cons_inv in Hm.
    assert (Hnext : forall y body' g', marshal_fields default_opts l fs = Ok body' -> (length body' < g')%nat ->
              log_paths (snd (tstruct_loop o prec p g' fsall depr (donev ++ y :: map (fun fd => zero (snd fd)) fs)
                                (body' ++ T KObjectEnd VNone :: rest))) = ups p l fs).
    { intros y body' g' Hb Hg'. change (donev ++ y :: ?z) with (donev ++ [y] ++ z). rewrite app_assoc.
      apply (IH fsall (pre ++ [fd]) fs (donev ++ [y]) body'); try assumption.
      - rewrite <- app_assoc. exact Hall.
      - rewrite !app_length, Hlen. reflexivity. }
    rewrite ups_cons. cbn [map].
    destruct (fexported fd) eqn:Hex; cbn [negb].
    + destruct Hm as (a & b & Ha & Hb & ->).
      destruct g as [|g]; [clear - Hg; cbn [length] in Hg; lia|]. cbn [app pstruct_loop kind].
      change (KString =? KObjectEnd) with false. cbn beta iota.
      rewrite (log_pbind _ _ _ _ (Hname _ _ _ _)). cbn [fst snd app].
      subst fsall. rewrite (find_field_at pre fd fs 0 Hnd Hex). cbn [Nat.add].
      rewrite <- Hlen, nth_app_here. rewrite <- app_assoc.
      rewrite (log_pbind _ _ _ _ (Hx (snd fd) a _ _ Hwx Hsx Hnrx Htx Hnx Ha)). cbn [fst snd].
      rewrite set_nth_app, (Hnext _ b g Hb) by (clear - Hg; cbn [length] in Hg; rewrite app_length in Hg; lia).
      reflexivity.
    + apply Hnext; [exact Hm|clear - Hg; lia].
Qed.

End PLoops.

Definition leaf_val (v : gval) : bool :=
  match v with
  | GBool _ | GInt _ | GUint _ | GF32 _ | GF64 _ | GStr _ | GBytes _ _ | GTime _ => true
  | _ => false
  end.

Lemma marshal_leaf t v ts : leaf_val v = true -> has_type t v = true -> reg_prefix t = [] ->
  marshal default_opts t v = Ok ts ->
  exists tk, ts = [tk] /\ leaf_kind (kind tk) = true /\ forall e, underlying t <> TPtr e.
Proof.
  intros Hv Hty Hnr Hm.
  destruct v as [b|z|n|b|b|s|n s| | | | | | |e]; try discriminate Hv;
    cbn [has_type marshal] in Hty, Hm; rewrite Hnr in Hm;
    destruct (underlying t) eqn:Hut; try discriminate Hty.
  (* the kind of the token depends on whether a float is a NaN and on the width of an integer *)
  6: destruct (f64_is_nan b). 5: destruct (f32_is_nan b). 2, 3: destruct w.
  all: injection Hm as <-; eexists; split; [reflexivity|split; [reflexivity|discriminate]].
Qed.

Section PRoundTrip.
Variable pf : bytes -> N -> option N.
Variable o : copts.
Variable R : registry.

(* the result: by erasure from the round trip of the pure model, whose fuel bound [2 * vsize v < f]
   (roundtrip_simple_fuel) is the one used from here on *)
Lemma unmp_rt_fst t v ts rest f p :
  wf_ty t = true -> simple_ty t = true ->
  has_type t v = true -> no_ptr_to_nil v = true ->
  marshal default_opts t v = Ok ts -> (2 * vsize v < f)%nat ->
  fst (unmp pf f o R t (zero t) (ts ++ rest) p) = POk (normal t v, rest).
Proof.
  intros Hwf Hs Hty Hnp Hm Hf. apply erase_ok. rewrite unmp_erase.
  apply roundtrip_simple_fuel; assumption.
Qed.

(* the log; and, as no type is registered, the stream does not open with a type name (at a pointer the
   head of the pointee's stream decides how the pointer itself is read) *)
Definition rtp_ok (v : gval) : Prop :=
  forall t ts, wf_ty t = true -> simple_ty t = true -> noreg_ty t = true ->
    has_type t v = true -> no_ptr_to_nil v = true -> marshal default_opts t v = Ok ts ->
    (exists tk r, ts = tk :: r /\ (kind tk =? KTypeName) = false) /\
    forall f rest p, (2 * vsize v < f)%nat ->
    log_paths (snd (unmp pf f o R t (zero t) (ts ++ rest) p)) = upaths t v p.

Lemma rtp_elem_ok f l : Forall rtp_ok l -> (2 * lsize l < f)%nat -> Forall (pelem_ok (unmp pf f o R)) l.
Proof.
  induction 1 as [|x l Hx _ IH]; intros Hf; constructor.
  - intros ft a rest' p Hwf Hs Hnr Ht Hn Hm. rewrite lsize_cons in Hf. split.
    + apply unmp_rt_fst; try assumption. clear - Hf. lia.
    + apply Hx; try assumption. clear - Hf. lia.
  - apply IH. rewrite lsize_cons in Hf. clear - Hf. lia.
Qed.

Lemma rtp_leaf v : leaf_val v = true -> rtp_ok v.
Proof.
  intros Hv t ts _ _ Hnr Hty _ Hm.
  destruct (marshal_leaf t v ts Hv Hty (noreg_prefix t Hnr) Hm) as (tk & -> & Hk & Hnp).
  split.
  - exists tk, []. split; [reflexivity|apply (leaf_kind_head _ Hk)].
  - intros [|f] rest p Hf; [clear - Hf; lia|]. cbn [app]. rewrite unmp_leaf_log by assumption.
    destruct v; try discriminate Hv; reflexivity.
Qed.

Theorem roundtrip_paths_all : forall v, rtp_ok v.
Proof.
  induction v as [b|z|n|b|b|s|n s|n l IH|n es|l IH| |x IH|d|r|e] using gval_ind2;
    try (apply rtp_leaf; reflexivity);
    intros t ts Hwf Hs Hnr Hty Hnp Hm;
    pose proof (simple_underlying t Hs) as Hsu; pose proof (wf_underlying t Hwf) as Hwu;
    pose proof (noreg_underlying t Hnr) as Hnu.
  (* a map, an interface or a func has no simple type *)
  2, 6, 7: cbn [has_type] in Hty; destruct (underlying t); discriminate.
  - (* list: array or slice *)
    rewrite has_type_list in Hty. rewrite marshal_GList in Hm.
    apply bind_ok in Hm. destruct Hm as (ts0 & Hm & Hts). rewrite (noreg_prefix t Hnr) in Hts. injection Hts as <-.
    apply bind_ok in Hm. destruct Hm as (body & Hm & Hts). injection Hts as <-.
    split; [eexists _, _; split; reflexivity|]. intros [|f'] rest p Hf; [clear - Hf; lia|].
    cbn [forallb no_ptr_to_nil] in Hnp. rewrite vsize_list in Hf. rewrite upaths_list.
    assert (Hel : Forall (pelem_ok (unmp pf f' o R)) l).
    { apply rtp_elem_ok; [exact IH|clear - Hf; lia]. }
    assert (Hl : typed_list (elem_ty t) l = true -> simple_ty (elem_ty t) = true ->
                 (length l < S (length (body ++ T KArrayEnd VNone :: rest)))%nat).
    { intros Hall Hse. pose proof (marshal_list_len _ _ _ _ Hall Hse Hm) as Hl. rewrite app_length. clear - Hl. lia. }
    unfold elem_ty in *. cbn [app]. rewrite <- app_assoc. cbn [app].
    destruct (underlying t) eqn:Hut; try discriminate; cbn [wf_ty simple_ty noreg_ty] in Hwu, Hsu, Hnu.
    + (* array *)
      apply andb_true_iff in Hty. destruct Hty as [Hty Hall]. apply andb_true_iff in Hty. destruct Hty as [_ Hlen].
      apply Nat.eqb_eq in Hlen.
      rewrite (unmp_array_step pf o R _ _ _ _ _ _ _ Hut), log_tap_pbind_pok.
      rewrite zero_underlying, Hut. cbn [zero items_of_gval]. rewrite <- Hlen.
      cbn [log_paths map fst snd]. f_equal.
      exact (parr_loop_log (unmp pf f' o R) _ p Hwu Hsu Hnu l Hel Hall Hnp body Hm _ [] rest (Hl Hall Hsu)).
    + (* slice *)
      apply andb_true_iff in Hty. destruct Hty as [_ Hall].
      rewrite (unmp_slice_step pf o R _ _ _ _ _ _ Hut), log_tap_pbind_pok.
      rewrite zero_underlying, Hut. cbn [zero items_of_gval].
      cbn [log_paths map fst snd]. f_equal.
      exact (pslice_loop_log (unmp pf f' o R) _ p Hwu Hsu Hnu l Hel Hall Hnp body Hm _ [] rest (Hl Hall Hsu)).
  - (* struct *)
    rewrite has_type_struct in Hty. rewrite marshal_GStruct in Hm.
    apply bind_ok in Hm. destruct Hm as (ts0 & Hm & Hts). rewrite (noreg_prefix t Hnr) in Hts. injection Hts as <-.
    apply bind_ok in Hm. destruct Hm as (body & Hm & Hts). injection Hts as <-.
    split; [eexists _, _; split; reflexivity|]. intros [|f'] rest p Hf; [clear - Hf; lia|].
    cbn [no_ptr_to_nil] in Hnp. rewrite vsize_struct in Hf. rewrite upaths_struct.
    assert (Hel : Forall (pelem_ok (unmp pf f' o R)) l).
    { apply rtp_elem_ok; [exact IH|clear - Hf; lia]. }
    unfold fields_of in *.
    destruct (underlying t) eqn:Hut; try discriminate.
    rewrite wf_ty_struct in Hwu. apply andb_true_iff in Hwu. destruct Hwu as [Hwfs Hnd].
    cbn [simple_ty noreg_ty] in Hsu, Hnu.
    cbn [app]. rewrite <- app_assoc. cbn [app].
    rewrite (unmp_struct_step pf o R _ _ _ _ _ _ Hut), log_tap_pbind_pok.
    rewrite zero_underlying, Hut. cbn [zero log_paths map fst snd]. f_equal.
    assert (Hnm : forall s cur rest' p', pres_is (unmp pf f' o R TString cur (T KString (VStr s) :: rest') p')
                                                 (GStr s, rest') [(p', 24)]).
    { destruct f' as [|f'']; [clear - Hf; lia|]. intros. rewrite unmp_name. split; reflexivity. }
    apply (pstruct_loop_log o (unmp pf f' o R) Hnm p l Hel fs [] fs [] body eq_refl Hnd Hwfs Hsu Hnu Hty Hnp Hm eq_refl).
    rewrite app_length. clear. lia.
  - (* nil pointer *)
    cbn [has_type] in Hty. destruct (underlying t) eqn:Hut; try discriminate.
    cbn [marshal bind] in Hm. rewrite (noreg_prefix t Hnr) in Hm. injection Hm as <-.
    split; [eexists _, _; split; reflexivity|]. intros [|f'] rest p Hf; [clear - Hf; lia|].
    cbn [app]. rewrite unmp_nil_log. reflexivity.
  - (* non-nil pointer *)
    cbn [has_type] in Hty. destruct (underlying t) eqn:Hut; try discriminate.
    rewrite marshal_GPtr in Hm. unfold pointee_ty in *. rewrite Hut in *.
    apply bind_ok in Hm. destruct Hm as (tsx & Hm & Hts). rewrite (noreg_prefix t Hnr) in Hts. injection Hts as <-.
    cbn [wf_ty simple_ty noreg_ty] in Hwu, Hsu, Hnu.
    assert (Hnx : no_ptr_to_nil x = true /\ x <> GPtr None).
    { cbn [no_ptr_to_nil] in Hnp. destruct x as [| | | | | | | | | |[y|]| | |]; try (split; [exact Hnp|discriminate]).
      discriminate Hnp. }
    destruct Hnx as [Hnx Hxn].
    destruct (IH _ _ Hwu Hsu Hnu Hty Hnx Hm) as [(tk & r & E & Htn) Hlog].
    destruct (marshal_head _ _ _ _ Hty Hsu Hm) as (tk' & r' & E' & Hh & Hnil).
    rewrite E in E'. injection E' as <- <-.
    cbn [app]. split; [exists tk, r; split; assumption|]. intros [|f1] rest p Hf; [clear - Hf; lia|].
    cbn [vsize] in Hf. rewrite upaths_ptr. unfold pointee_ty. rewrite Hut. rewrite E at 1. cbn [app].
    rewrite (unmp_ptr_step pf o R f1 t _ _ tk _ p Hut Hh Htn), log_tap_pbind_pok
      by (intros Hk; apply Hxn, Hnil; assumption).
    change (tk :: r ++ rest) with ((tk :: r) ++ rest). rewrite <- E.
    cbn [log_paths map fst snd]. f_equal. apply Hlog. clear - Hf. lia.
Qed.

End PRoundTrip.

Theorem unmp_roundtrip_paths : forall pf o R t v ts rest f p,
  wf_ty t = true -> simple_ty t = true -> noreg_ty t = true ->
  has_type t v = true -> no_ptr_to_nil v = true ->
  marshal default_opts t v = Ok ts -> (2 * vsize v < f)%nat ->
  fst (unmp pf f o R t (zero t) (ts ++ rest) p) = POk (normal t v, rest) /\
  log_paths (snd (unmp pf f o R t (zero t) (ts ++ rest) p)) = upaths t v p.
Proof.
  intros pf o R t v ts rest f p Hwf Hs Hnr Hty Hnp Hm Hf. split.
  - apply unmp_rt_fst; assumption.
  - apply (roundtrip_paths_all pf o R v t ts); assumption.
Qed.

(* a concrete instance: a named struct with an exported and an unexported scalar field, a slice of
   pointers to a struct (one of them nil), an array, a pointer to pointer, a named byte array, a time *)
Definition exInner : ty := TStruct [([88], true, TInt WNat); ([121], false, TString)].
Definition exT : ty :=
  TNamed [79] false []
    (TStruct [([65], true, TInt W32);
              ([98], false, TBool);
              ([83], true, TSlice (TPtr exInner));
              ([82], true, TArray 2 TString);
              ([80], true, TPtr (TPtr TBool));
              ([78], true, TNamed [75] false [] (TByteArray 2));
              ([84], true, TTime)]).
Definition exV : gval :=
  GStruct [GInt 7;
           GBool true;
           GList false [GPtr (Some (GStruct [GInt 1; GStr [104]])); GPtr None];
           GList false [GStr [97]; GStr []];
           GPtr (Some (GPtr (Some (GBool true))));
           GBytes false [1; 2];
           GTime zero_time].
Definition exTs : list token := match marshal default_opts exT exV with Ok ts => ts | _ => [] end.

(* the hypotheses of [unmp_roundtrip_paths] hold of (exT, exV), for every parse-float oracle, options,
   registry, continuation of the stream and context path *)
Example unmp_roundtrip_paths_ex pf o R rest p :
  marshal default_opts exT exV = Ok exTs /\
  fst (unmp pf 100 o R exT (zero exT) (exTs ++ rest) p) = POk (normal exT exV, rest) /\
  log_paths (snd (unmp pf 100 o R exT (zero exT) (exTs ++ rest) p)) = upaths exT exV p.
Proof.
  split; [vm_compute; reflexivity|].
  apply unmp_roundtrip_paths; try (vm_compute; reflexivity). vm_compute. lia.
Qed.

(* and its conclusion, computed: under the context path ["r"] the callback sees the struct, each exported
   field's name (read into a string, kind 24) under the struct's path and its value under path ++ [name],
   slice and array elements under path ++ [index], pointees under the pointer's path; the unexported
   fields are not visited *)
Example unmp_roundtrip_paths_computed :
  fst (unmp (fun _ _ => None) 100 default_opts [] exT (zero exT) (exTs ++ [T KBool (VBool true)]) [PStr [114]])
    = POk (normal exT exV, [T KBool (VBool true)]) /\
  log_paths (snd (unmp (fun _ _ => None) 100 default_opts [] exT (zero exT) (exTs ++ [T KBool (VBool true)]) [PStr [114]]))
    = upaths exT exV [PStr [114]] /\
  upaths exT exV [PStr [114]] =
    [([PStr [114]], 25); ([PStr [114]], 24); ([PStr [114]; PStr [65]], 5);
     ([PStr [114]], 24); ([PStr [114]; PStr [83]], 23);
     ([PStr [114]; PStr [83]; PIdx 0], 22);
     ([PStr [114]; PStr [83]; PIdx 0], 25);
     ([PStr [114]; PStr [83]; PIdx 0], 24);
     ([PStr [114]; PStr [83]; PIdx 0; PStr [88]], 2);
     ([PStr [114]; PStr [83]; PIdx 1], 22); ([PStr [114]], 24);
     ([PStr [114]; PStr [82]], 17); ([PStr [114]; PStr [82]; PIdx 0], 24);
     ([PStr [114]; PStr [82]; PIdx 1], 24); ([PStr [114]], 24);
     ([PStr [114]; PStr [80]], 22); ([PStr [114]; PStr [80]], 22);
     ([PStr [114]; PStr [80]], 1); ([PStr [114]], 24);
     ([PStr [114]; PStr [78]], 17); ([PStr [114]], 24);
     ([PStr [114]; PStr [84]], 25)].
Proof. split; [|split]; vm_compute; reflexivity. Qed.

Example unmp_erase_ex :
  erase (unmp (fun _ _ => None) 100 default_opts [] exT (zero exT) exTs [PStr [114]])
  = unm (fun _ _ => None) 100 default_opts [] exT (zero exT) exTs.
Proof. apply unmp_erase. Qed.

Example unmp_shift_ex :
  snd (unmp (fun _ _ => None) 100 default_opts [] exT (zero exT) exTs ([PStr [114]] ++ [PIdx 3]))
  = shift_log [PStr [114]] (snd (unmp (fun _ _ => None) 100 default_opts [] exT (zero exT) exTs [PIdx 3])).
Proof. rewrite unmp_shift. reflexivity. Qed.

(* an error path extends the context path: a string where field A's int32 is expected *)
Example unmp_paths_extend_ex :
  fst (unmp (fun _ _ => None) 100 default_opts [] exT (zero exT)
         [T KObject VNone; T KString (VStr [65]); T KString (VStr [66])] [PStr [114]])
  = PErr (EMismatch KString 5) [PStr [114]; PStr [65]].
Proof. vm_compute. reflexivity. Qed.

Print Assumptions unmp_erase.
Print Assumptions unmp_shift.
Print Assumptions unmp_paths_extend.
Print Assumptions unmp_first_tap.
Print Assumptions unmp_roundtrip_paths.
