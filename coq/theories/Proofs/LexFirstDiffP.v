(* Proofs/LexFirstDiffP.v — "lexicographically, token by token" said in full (C06): the
   order of two streams is decided by their FIRST differing position and by nothing after
   it.  Every pair of streams splits into a pairwise-same prefix and two rests; the rests
   are both empty (Eq), one is empty (the shorter stream sorts first), or their heads
   differ and the answer is the order of those two heads, whatever follows. *)
From Coq Require Import List NArith ZArith Bool.
From SbModel Require Import Base.Bytes Base.Tokens Model.Compare.
From SbModel Require Import Spec.LexOrder Proofs.CompareP.
Import ListNotations.
Local Open Scope N_scope.

Theorem lex_same_prefix p q a b : Forall2 tok_same p q -> lex (p ++ a) (q ++ b) = lex a b.
Proof. exact (list_cmp_app tok_ord p q a b). Qed.

Theorem lex_first_difference p q x y a b :
  Forall2 tok_same p q -> tok_ord x y <> Eq -> lex (p ++ x :: a) (q ++ y :: b) = tok_ord x y.
Proof.
  intros H Hxy. rewrite (lex_same_prefix p q (x :: a) (y :: b) H). cbn [lex].
  destruct (tok_ord x y); [contradiction | reflexivity | reflexivity].
Qed.

Inductive lex_split (a b : list token) : comparison -> Prop :=
| LSboth p q : a = p -> b = q -> Forall2 tok_same p q -> lex_split a b Eq
| LSleft p q y b' : a = p -> b = q ++ y :: b' -> Forall2 tok_same p q -> lex_split a b Lt
| LSright p q x a' : a = p ++ x :: a' -> b = q -> Forall2 tok_same p q -> lex_split a b Gt
| LSdiff p q x y a' b' : a = p ++ x :: a' -> b = q ++ y :: b' -> Forall2 tok_same p q ->
    tok_ord x y <> Eq -> lex_split a b (tok_ord x y).

Lemma lex_split_cons x y a b c : tok_same x y -> lex_split a b c -> lex_split (x :: a) (y :: b) c.
Proof.
  intros Hxy [p q -> -> H | p q y' b' -> -> H | p q x' a' -> -> H | p q x' y' a' b' -> -> H Hd].
  - apply (LSboth _ _ (x :: p) (y :: q)); try reflexivity. constructor; assumption.
  - apply (LSleft _ _ (x :: p) (y :: q) y' b'); try reflexivity. constructor; assumption.
  - apply (LSright _ _ (x :: p) (y :: q) x' a'); try reflexivity. constructor; assumption.
  - apply (LSdiff _ _ (x :: p) (y :: q) x' y' a' b'); try reflexivity; [constructor|]; assumption.
Qed.

Theorem lex_decomposition a : forall b, lex_split a b (lex a b).
Proof.
  induction a as [|x a IH]; intros [|y b]; cbn [lex].
  - apply (LSboth [] [] [] []); constructor.
  - apply (LSleft [] (y :: b) [] [] y b); constructor.
  - apply (LSright (x :: a) [] [] [] x a); constructor.
  - destruct (tok_ord x y) eqn:Hxy; [exact (lex_split_cons x y a b _ Hxy (IH b)) | |].
    all: rewrite <- Hxy; apply (LSdiff _ _ [] [] x y a b); try reflexivity; [constructor|].
    all: rewrite Hxy; discriminate.
Qed.

Theorem lex_split_sound a b c : lex_split a b c -> lex a b = c.
Proof.
  intros [p q Ha Hb H | p q y b' Ha Hb H | p q x a' Ha Hb H | p q x y a' b' Ha Hb H Hd]; subst.
  - apply lex_eq_iff. exact H.
  - rewrite <- (app_nil_r p). rewrite (lex_same_prefix p q [] (y :: b') H). reflexivity.
  - rewrite <- (app_nil_r q). rewrite (lex_same_prefix p q (x :: a') [] H). reflexivity.
  - apply lex_first_difference; assumption.
Qed.

(* what comes after the first difference never matters — for the implementation's mirror too *)
Theorem cmp_tokens_first_difference p q x y a b a2 b2 :
  Forall (fun t => wf_cmp t = true) (p ++ x :: a) -> Forall (fun t => wf_cmp t = true) (q ++ y :: b) ->
  Forall (fun t => wf_cmp t = true) (p ++ x :: a2) -> Forall (fun t => wf_cmp t = true) (q ++ y :: b2) ->
  Forall2 tok_same p q -> tok_ord x y <> Eq ->
  cmp_tokens (p ++ x :: a) (q ++ y :: b) = Some (tok_ord x y) /\
  cmp_tokens (p ++ x :: a2) (q ++ y :: b2) = cmp_tokens (p ++ x :: a) (q ++ y :: b).
Proof.
  intros W1 W2 W3 W4 H Hd.
  rewrite (cmp_is_lex _ _ W1 W2), (cmp_is_lex _ _ W3 W4).
  rewrite !lex_first_difference by assumption. split; reflexivity.
Qed.

(* non-vacuity: +0 and -0 in front, the decision is taken by the tokens behind them *)
Example first_difference_behind_signed_zero :
  let z0 := T KFloat64 (VF64 0) in let z1 := T KFloat64 (VF64 9223372036854775808) in
  let one := T KInt (VI WNat 1%Z) in let two := T KInt (VI WNat 2%Z) in
  Forall2 tok_same [z0] [z1] /\ tok_ord one two = Lt /\
  cmp_tokens ([z0] ++ one :: [two]) ([z1] ++ two :: []) = Some Lt.
Proof. repeat split. constructor; [reflexivity | constructor]. Qed.

Print Assumptions lex_decomposition.
Print Assumptions lex_split_sound.
Print Assumptions cmp_tokens_first_difference.
