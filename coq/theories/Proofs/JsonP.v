(* Proofs/JsonP.v — the JSON token source (Model/Json.v):
   - DecodeJson's token map turns the tokens of a document into the mirroring sb stream;
   - a complete document (and a sequence of them) is balanced, so decode_json succeeds on it;
   - a truncated container document is an error (EEnd), never a shorter successful stream;
   - the mirror of a document with byte-valued strings is a well-formed token stream;
   - literal conversion to an integer target agrees with the target's range. *)
From SbModel Require Import Model.Json.
From Coq Require Import Lia ZifyBool ZifyNat ZifyN.
Local Open Scope N_scope.

Lemma json_map_tok_err t e : json_map_tok t = inr e -> e = EOther.
Proof.
  destruct t as [c|b|t|s|]; cbn [json_map_tok]; try discriminate.
  destruct (c =? 91) eqn:E1; [discriminate|].
  destruct (c =? 93) eqn:E2; [discriminate|].
  destruct (c =? 123) eqn:E3; [discriminate|].
  destruct (c =? 125) eqn:E4; [discriminate|].
  intros H. injection H as <-. reflexivity.
Qed.

Lemma json_map_cons_ok t tk r :
  json_map_tok t = inl tk -> json_map (t :: r) = (tk :: fst (json_map r), snd (json_map r)).
Proof.
  intros H. cbn [json_map]. rewrite H. destruct (json_map r) as [o e]. reflexivity.
Qed.

Lemma json_map_app a b oa :
  json_map a = (oa, ENone) ->
  json_map (a ++ b) = (oa ++ fst (json_map b), snd (json_map b)).
Proof.
  revert oa. induction a as [|t a IH]; intros oa H.
  - cbn [json_map] in H. injection H as <-. cbn [app]. destruct (json_map b) as [o e]. reflexivity.
  - cbn [json_map app] in *. destruct (json_map_tok t) as [tk|e] eqn:Et.
    + destruct (json_map a) as [oa' e'] eqn:Ea. injection H as <- ->.
      rewrite (IH oa' eq_refl). reflexivity.
    + apply json_map_tok_err in Et. subst e. discriminate H.
Qed.

Lemma json_map_flat_map {A} (f : A -> list jtok) (g : A -> list token) l :
  Forall (fun x => json_map (f x) = (g x, ENone)) l ->
  json_map (flat_map f l) = (flat_map g l, ENone).
Proof.
  induction 1 as [|x l Hx Hl IH]; [reflexivity|].
  cbn [flat_map]. rewrite (json_map_app _ _ _ Hx), IH. reflexivity.
Qed.

Theorem json_map_mirror j : json_map (json_tokens j) = (mirror j, ENone).
Proof.
  induction j as [|b|t|s|l IH|l IH] using json_ind2; try reflexivity.
  - cbn [json_tokens mirror].
    rewrite (json_map_cons_ok _ (T KArray VNone)) by reflexivity.
    rewrite (json_map_app _ [JDelim 93] _ (json_map_flat_map _ _ _ IH)). reflexivity.
  - cbn [json_tokens mirror].
    rewrite (json_map_cons_ok _ (T KObject VNone)) by reflexivity.
    assert (Hl : Forall (fun m => json_map (JTStr (fst m) :: json_tokens (snd m))
                                  = (T KString (VStr (fst m)) :: mirror (snd m), ENone)) l).
    { eapply Forall_impl; [|exact IH]. intros m Hm.
      rewrite (json_map_cons_ok _ (T KString (VStr (fst m)))) by reflexivity.
      rewrite Hm. reflexivity. }
    rewrite (json_map_app _ [JDelim 125] _
               (json_map_flat_map _ (fun m => T KString (VStr (fst m)) :: mirror (snd m)) _ Hl)).
    reflexivity.
Qed.

Lemma jdepth_app a b : forall d, jdepth d (a ++ b) = jdepth (jdepth d a) b.
Proof.
  induction a as [|t a IH]; intros d; [reflexivity|].
  destruct t as [c|x|x|x|]; cbn [app jdepth]; apply IH.
Qed.

Lemma jdepth_arr_open d r : jdepth d (JDelim 91 :: r) = jdepth (d + 1)%Z r.
Proof. reflexivity. Qed.
Lemma jdepth_obj_open d r : jdepth d (JDelim 123 :: r) = jdepth (d + 1)%Z r.
Proof. reflexivity. Qed.
Lemma jdepth_arr_close d : jdepth d [JDelim 93] = (d - 1)%Z.
Proof. reflexivity. Qed.
Lemma jdepth_obj_close d : jdepth d [JDelim 125] = (d - 1)%Z.
Proof. reflexivity. Qed.

Definition block (ts : list jtok) : Prop :=
  (forall d, jdepth d ts = d) /\ (forall d p s, ts = p ++ s -> (d <= jdepth d p)%Z).

Lemma block_one t : (forall d, jdepth d [t] = d) -> block [t].
Proof.
  intros Ht. split; [exact Ht|]. intros d [|t' p] s H; [cbn [jdepth]; lia|].
  injection H as <- H. symmetry in H. apply app_eq_nil in H. destruct H as [-> _]. rewrite Ht. lia.
Qed.

Lemma block_app a b : block a -> block b -> block (a ++ b).
Proof.
  intros [Ha Pa] [Hb Pb]. split; [intros d; now rewrite jdepth_app, Ha, Hb|].
  intros d p s H. apply app_eq_app in H. destruct H as [u [[H _]|[-> H]]].
  - exact (Pa d p u H).
  - rewrite jdepth_app, Ha. exact (Pb d u s H).
Qed.

Lemma block_flat_map {A} (f : A -> list jtok) l : Forall (fun x => block (f x)) l -> block (flat_map f l).
Proof.
  induction 1 as [|x l Hx _ IH]; [|exact (block_app _ _ Hx IH)].
  split; [reflexivity|]. intros d p s H. symmetry in H. apply app_eq_nil in H. destruct H as [-> _].
  cbn [jdepth]. lia.
Qed.

Lemma app_tail_prefix {A} (a : list A) x p s :
  a ++ [x] = p ++ s -> s <> [] -> exists s', a = p ++ s' /\ s = s' ++ [x].
Proof.
  intros H Hs. destruct (exists_last Hs) as [s' [y Hy]]. subst s.
  rewrite app_assoc in H. apply app_inj_tail in H. destruct H as [Ha Hx]. subst a y.
  exists s'. split; reflexivity.
Qed.

(* a container: an opening delimiter, a block, a closing token; a non-empty proper prefix keeps
   the opening delimiter and not the closing token *)
Lemma block_container o c body :
  (forall d r, jdepth d (JDelim o :: r) = jdepth (d + 1)%Z r) -> (forall d, jdepth d [c] = (d - 1)%Z) ->
  block body ->
  block (JDelim o :: body ++ [c]) /\
  (forall d p s, JDelim o :: body ++ [c] = p ++ s -> p <> [] -> s <> [] -> (d < jdepth d p)%Z).
Proof.
  intros Ho Hc [Hb Pb].
  assert (Hall : forall d, jdepth d (JDelim o :: body ++ [c]) = d)
    by (intros d; rewrite Ho, jdepth_app, Hb, Hc; lia).
  assert (Hlt : forall d p s, JDelim o :: body ++ [c] = p ++ s -> p <> [] -> s <> [] -> (d < jdepth d p)%Z).
  { intros d [|t p] s H Hp Hs; [now elim Hp|]. cbn [app] in H. injection H as <- H.
    apply app_tail_prefix in H; [|exact Hs]. destruct H as [s' [H _]].
    rewrite Ho. pose proof (Pb (d + 1)%Z p s' H). lia. }
  split; [split; [exact Hall|]|exact Hlt].
  intros d [|t p] [|x s] H; try (cbn [jdepth]; lia).
  - rewrite app_nil_r in H. rewrite <- H, Hall. lia.
  - apply Z.lt_le_incl, (Hlt d _ (x :: s) H); discriminate.
Qed.

Definition is_container (j : json) : Prop :=
  match j with JArr _ | JObj _ => True | _ => False end.

Theorem json_tokens_block j :
  block (json_tokens j) /\
  (is_container j ->
   forall d p s, json_tokens j = p ++ s -> p <> [] -> s <> [] -> (d < jdepth d p)%Z).
Proof.
  induction j as [|b|t|s|l IH|l IH] using json_ind2;
    try (split; [apply block_one; reflexivity|intros []]).
  - destruct (block_container 91 (JDelim 93) (flat_map json_tokens l) jdepth_arr_open jdepth_arr_close) as [Hb Hlt].
    + apply block_flat_map. eapply Forall_impl; [|exact IH]. intros x Hx. exact (proj1 Hx).
    + split; [exact Hb|intros _; exact Hlt].
  - destruct (block_container 123 (JDelim 125) (flat_map (fun m => JTStr (fst m) :: json_tokens (snd m)) l)
                jdepth_obj_open jdepth_obj_close) as [Hb Hlt].
    + apply block_flat_map. eapply Forall_impl; [|exact IH]. intros m Hm.
      exact (block_app [_] _ (block_one (JTStr (fst m)) (fun _ => eq_refl)) (proj1 Hm)).
    + split; [exact Hb|intros _; exact Hlt].
Qed.

Corollary jdepth_tokens j d : jdepth d (json_tokens j) = d.
Proof. exact (proj1 (proj1 (json_tokens_block j)) d). Qed.

Corollary decode_json_mirror j : decode_json (json_tokens j) = (mirror j, ENone).
Proof.
  unfold decode_json. rewrite json_map_mirror, jdepth_tokens. reflexivity.
Qed.

Theorem json_map_app_docs js :
  json_map (flat_map json_tokens js) = (flat_map mirror js, ENone).
Proof.
  apply json_map_flat_map. apply Forall_forall. intros j _. apply json_map_mirror.
Qed.

Theorem decode_json_app js :
  decode_json (flat_map json_tokens js) = (flat_map mirror js, ENone).
Proof.
  unfold decode_json. rewrite json_map_app_docs.
  assert (Hb : block (flat_map json_tokens js)).
  { apply block_flat_map, Forall_forall. intros j _. apply json_tokens_block. }
  rewrite (proj1 Hb). reflexivity.
Qed.

Lemma json_map_all_ok ts :
  (forall t, In t ts -> exists tk, json_map_tok t = inl tk) -> snd (json_map ts) = ENone.
Proof.
  induction ts as [|t ts IH]; intros H; [reflexivity|].
  destruct (H t (or_introl eq_refl)) as [tk Ht].
  rewrite (json_map_cons_ok _ _ _ Ht). cbn [snd].
  apply IH. intros t' Hin. apply H. right. exact Hin.
Qed.

Lemma json_map_ok_all ts o :
  json_map ts = (o, ENone) -> forall t, In t ts -> exists tk, json_map_tok t = inl tk.
Proof.
  revert o. induction ts as [|t0 ts IH]; intros o H t Hin; [destruct Hin|].
  cbn [json_map] in H. destruct (json_map_tok t0) as [tk|e] eqn:Et.
  - destruct Hin as [<-|Hin]; [eauto|].
    destruct (json_map ts) as [o' e'] eqn:Ets. injection H as _ ->.
    exact (IH o' eq_refl t Hin).
  - apply json_map_tok_err in Et. subst e. discriminate H.
Qed.

Lemma json_tokens_ok j t : In t (json_tokens j) -> exists tk, json_map_tok t = inl tk.
Proof. exact (json_map_ok_all _ _ (json_map_mirror j) t). Qed.

Theorem decode_json_truncated ts :
  (0 < jdepth 0 ts)%Z ->
  (forall t, In t ts -> exists tk, json_map_tok t = inl tk) ->
  snd (decode_json ts) = EEnd.
Proof.
  intros Hpos Hok. apply json_map_all_ok in Hok. unfold decode_json.
  destruct (json_map ts) as [out e]. cbn [snd] in Hok. subst e.
  apply Z.ltb_lt in Hpos. rewrite Hpos. reflexivity.
Qed.

(* the output of a truncated run is still the mapped prefix (it is the error that tells the
   consumer the document was cut) *)
Lemma decode_json_fst ts : fst (decode_json ts) = fst (json_map ts).
Proof.
  unfold decode_json. destruct (json_map ts) as [out e].
  destruct e; try reflexivity. destruct (0 <? jdepth 0 ts)%Z; reflexivity.
Qed.

(* what [decode_json] tests at the end of its input, under a name for the prefix theorems *)
Definition open_depth (ts : list jtok) : Z := jdepth 0 ts.

Theorem truncated_depth_pos j k :
  is_container j -> (0 < k < length (json_tokens j))%nat ->
  (0 < open_depth (firstn k (json_tokens j)))%Z.
Proof.
  intros Hc [Hk0 Hk]. apply (proj2 (json_tokens_block j) Hc 0%Z _ (skipn k (json_tokens j))).
  - symmetry. apply firstn_skipn.
  - intros E. apply (f_equal (@length _)) in E. rewrite firstn_length in E. cbn [length] in E. lia.
  - intros E. apply (f_equal (@length _)) in E. rewrite skipn_length in E. cbn [length] in E. lia.
Qed.

Theorem decode_json_truncated_doc j k :
  is_container j -> (0 < k < length (json_tokens j))%nat ->
  snd (decode_json (firstn k (json_tokens j))) = EEnd.
Proof.
  intros Hc Hk. apply decode_json_truncated.
  - exact (truncated_depth_pos j k Hc Hk).
  - intros t Hin. apply (json_tokens_ok j).
    rewrite <- (firstn_skipn k (json_tokens j)). apply in_or_app. left. exact Hin.
Qed.

Corollary prefix_depth_nonneg j k :
  (k < length (json_tokens j))%nat -> (0 <= open_depth (firstn k (json_tokens j)))%Z.
Proof.
  intros _. apply (proj2 (proj1 (json_tokens_block j)) 0%Z _ (skipn k (json_tokens j))).
  symmetry. apply firstn_skipn.
Qed.

Fixpoint wf_jsonb (j : json) : bool :=
  match j with
  | JNull | JBool _ => true
  | JNum t => wf_bytesb t
  | JStr s => wf_bytesb s
  | JArr l => forallb wf_jsonb l
  | JObj l => forallb (fun m => wf_bytesb (fst m) && wf_jsonb (snd m)) l
  end.
Definition wf_json (j : json) : Prop := wf_jsonb j = true.

Local Lemma wf_bytesb_iff s : wf_bytesb s = true <-> wf_bytes s.
Proof.
  unfold wf_bytesb, wf_bytes. rewrite forallb_forall, Forall_forall.
  split; intros H x Hx; specialize (H x Hx); unfold wf_byteb, wf_byte in *; lia.
Qed.

Lemma wf_json_num t : wf_json (JNum t) <-> wf_bytes t.
Proof. apply wf_bytesb_iff. Qed.
Lemma wf_json_str s : wf_json (JStr s) <-> wf_bytes s.
Proof. apply wf_bytesb_iff. Qed.
Lemma wf_json_arr l : wf_json (JArr l) <-> Forall wf_json l.
Proof. unfold wf_json. cbn [wf_jsonb]. rewrite forallb_forall, Forall_forall. reflexivity. Qed.
Lemma wf_json_obj l : wf_json (JObj l) <-> Forall (fun m => wf_bytes (fst m) /\ wf_json (snd m)) l.
Proof.
  unfold wf_json. cbn [wf_jsonb]. rewrite forallb_forall, Forall_forall.
  split; intros H m Hm; specialize (H m Hm).
  - apply andb_true_iff in H. destruct H as [H1 H2]. split; [apply wf_bytesb_iff|]; assumption.
  - destruct H as [H1 H2]. apply wf_bytesb_iff in H1. rewrite H1, H2. reflexivity.
Qed.

Lemma wf_token_literal t : wf_token (T KLiteral (VStr t)) = wf_bytesb t.
Proof. reflexivity. Qed.
Lemma wf_token_string s : wf_token (T KString (VStr s)) = wf_bytesb s.
Proof. reflexivity. Qed.

Theorem mirror_tokens_wf j : wf_json j -> Forall (fun t => wf_token t = true) (mirror j).
Proof.
  induction j as [|b|t|s|l IH|l IH] using json_ind2; intros Hwf.
  - repeat constructor.
  - repeat constructor.
  - cbn [mirror]. constructor; [|constructor]. rewrite wf_token_literal. exact Hwf.
  - cbn [mirror]. constructor; [|constructor]. rewrite wf_token_string. exact Hwf.
  - cbn [mirror]. apply wf_json_arr in Hwf.
    constructor; [reflexivity|]. apply Forall_app. split; [|repeat constructor].
    apply Forall_flat_map. rewrite Forall_forall in *. intros x Hx. exact (IH x Hx (Hwf x Hx)).
  - cbn [mirror]. apply wf_json_obj in Hwf.
    constructor; [reflexivity|]. apply Forall_app. split; [|repeat constructor].
    apply Forall_flat_map. rewrite Forall_forall in *. intros m Hm.
    destruct (Hwf m Hm) as [Hk Hv]. constructor.
    + rewrite wf_token_string. apply wf_bytesb_iff. exact Hk.
    + exact (IH m Hm Hv).
Qed.

(* the integer a decimal text denotes, whatever the width it is read at *)
Definition int_text (s : bytes) : option Z :=
  let '(neg, body) := match s with
                      | 45 :: r => (true, r)
                      | 43 :: r => (false, r)
                      | _ => (false, s)
                      end in
  option_map (fun n => if neg then (- Z.of_N n)%Z else Z.of_N n) (parse_digits body).

Lemma parse_int_iff b s z :
  parse_int b s = Some z <->
  int_text s = Some z /\ (- Z.of_N (2 ^ (b - 1)) <= z < Z.of_N (2 ^ (b - 1)))%Z.
Proof.
  unfold parse_int, int_text.
  destruct (match s with
            | 45 :: r => (true, r) | 43 :: r => (false, r) | _ => (false, s)
            end) as [neg body].
  destruct (parse_digits body) as [n|]; cbn [option_map]; [|split; [discriminate|intros [H _]; discriminate H]].
  (* all that is needed of the power is that it is positive; as a variable it costs lia less *)
  assert (Hh : 0 < 2 ^ (b - 1)) by (apply N.neq_0_lt_0, N.pow_nonzero; discriminate).
  revert Hh. generalize (2 ^ (b - 1)). intros h Hh.
  destruct neg.
  - destruct (n <=? h) eqn:E; split; try discriminate.
    + intros [= <-]. split; [reflexivity|lia].
    + intros [[= <-] _]. reflexivity.
    + intros [[= <-] Hr]. lia.
  - destruct (n <? h) eqn:E; split; try discriminate.
    + intros [= <-]. split; [reflexivity|lia].
    + intros [[= <-] _]. reflexivity.
    + intros [[= <-] Hr]. lia.
Qed.

Lemma parse_int_spec b s z :
  parse_int b s = Some z ->
  (- Z.of_N (2 ^ (b - 1)) <= z < Z.of_N (2 ^ (b - 1)))%Z.
Proof. intros H. apply parse_int_iff in H. exact (proj2 H). Qed.

Lemma parse_int_mono b b' s z :
  parse_int b s = Some z -> b <= b' -> parse_int b' s = Some z.
Proof.
  intros H Hb. apply parse_int_iff in H. destruct H as [Ht Hr]. apply parse_int_iff. split; [exact Ht|].
  assert (Hp : 2 ^ (b - 1) <= 2 ^ (b' - 1)) by (apply N.pow_le_mono_r; lia).
  revert Hr Hp. generalize (2 ^ (b - 1)) (2 ^ (b' - 1)). lia.
Qed.

Lemma parse_int_narrow b b' s z :
  parse_int b' s = Some z ->
  (- Z.of_N (2 ^ (b - 1)) <= z < Z.of_N (2 ^ (b - 1)))%Z ->
  parse_int b s = Some z.
Proof. intros H Hr. apply parse_int_iff in H. apply parse_int_iff. split; [exact (proj1 H)|exact Hr]. Qed.

Lemma pow_half_Z b : 0 < b -> Z.of_N (2 ^ (b - 1)) = (2 ^ (Z.of_N b - 1))%Z.
Proof. intros Hb. rewrite N2Z.inj_pow, N2Z.inj_sub by lia. reflexivity. Qed.

Lemma parse_int_narrow_Z b b' s z :
  0 < b -> parse_int b' s = Some z ->
  (- 2 ^ (Z.of_N b - 1) <= z < 2 ^ (Z.of_N b - 1))%Z ->
  parse_int b s = Some z.
Proof.
  intros Hb H Hr. apply (parse_int_narrow b b' s z H). rewrite pow_half_Z by exact Hb. exact Hr.
Qed.

Lemma parse_int_spec_Z b s z :
  0 < b -> parse_int b s = Some z -> (- 2 ^ (Z.of_N b - 1) <= z < 2 ^ (Z.of_N b - 1))%Z.
Proof. intros Hb H. rewrite <- pow_half_Z by exact Hb. exact (parse_int_spec b s z H). Qed.

Lemma parse_uint_iff b s n : parse_uint b s = Some n <-> parse_digits s = Some n /\ n < 2 ^ b.
Proof.
  unfold parse_uint. destruct (parse_digits s) as [m|]; [|split; [discriminate|intros [H _]; discriminate H]].
  generalize (2 ^ b). intros h.
  destruct (m <? h) eqn:E; split; try discriminate.
  - intros [= <-]. split; [reflexivity|lia].
  - intros [[= <-] _]. reflexivity.
  - intros [[= <-] Hr]. lia.
Qed.

Lemma parse_uint_spec b s n : parse_uint b s = Some n -> n < 2 ^ b.
Proof. intros H. apply parse_uint_iff in H. exact (proj2 H). Qed.

Lemma parse_uint_mono b b' s n : parse_uint b s = Some n -> b <= b' -> parse_uint b' s = Some n.
Proof.
  intros H Hb. apply parse_uint_iff in H. destruct H as [Ht Hr]. apply parse_uint_iff. split; [exact Ht|].
  assert (Hp : 2 ^ b <= 2 ^ b') by (apply N.pow_le_mono_r; lia).
  revert Hr Hp. generalize (2 ^ b) (2 ^ b'). lia.
Qed.

Lemma parse_uint_narrow b b' s n : parse_uint b' s = Some n -> n < 2 ^ b -> parse_uint b s = Some n.
Proof. intros H Hr. apply parse_uint_iff in H. apply parse_uint_iff. split; [exact (proj1 H)|exact Hr]. Qed.

Lemma in_irange_bits w z :
  in_irange w z = true <-> (- Z.of_N (2 ^ (int_bits w - 1)) <= z < Z.of_N (2 ^ (int_bits w - 1)))%Z.
Proof.
  unfold in_irange.
  assert (H : (2 ^ (8 * Z.of_nat (wbytes w) - 1))%Z = Z.of_N (2 ^ (int_bits w - 1)))
    by (destruct w; vm_compute; reflexivity).
  rewrite H. generalize (Z.of_N (2 ^ (int_bits w - 1))). intros h. lia.
Qed.

Lemma in_urange_bits w n : in_urange w n = true <-> n < 2 ^ int_bits w.
Proof.
  unfold in_urange.
  assert (H : 2 ^ (8 * N.of_nat (wbytes w)) = 2 ^ int_bits w) by (destruct w; reflexivity).
  rewrite H. generalize (2 ^ int_bits w). intros h. lia.
Qed.

Lemma int_bits_le_64 w : int_bits w <= 64.
Proof. destruct w; vm_compute; discriminate. Qed.

Section Literal.
Variable pf : bytes -> N -> option N.

Lemma convert_literal_int w s :
  convert_literal pf (TInt w) s =
  match parse_int (int_bits w) s with
  | Some z => Ok (T (kind_of_int w) (VI w z)) | None => Err EParse
  end.
Proof. reflexivity. Qed.

Lemma convert_literal_uint w s :
  convert_literal pf (TUint w) s =
  match parse_uint (int_bits w) s with
  | Some n => Ok (T (kind_of_uint w) (VU w n)) | None => Err EParse
  end.
Proof. reflexivity. Qed.

Theorem literal_int_in_range w s z :
  convert_literal pf (TInt w) s = Ok (T (kind_of_int w) (VI w z)) -> in_irange w z = true.
Proof.
  rewrite convert_literal_int. destruct (parse_int (int_bits w) s) as [z'|] eqn:E; [|discriminate].
  intros H. injection H as <-. apply in_irange_bits. exact (parse_int_spec _ _ _ E).
Qed.

Theorem literal_uint_in_range w s n :
  convert_literal pf (TUint w) s = Ok (T (kind_of_uint w) (VU w n)) -> in_urange w n = true.
Proof.
  rewrite convert_literal_uint. destruct (parse_uint (int_bits w) s) as [n'|] eqn:E; [|discriminate].
  intros H. injection H as <-. apply in_urange_bits. exact (parse_uint_spec _ _ _ E).
Qed.

Corollary literal_int_wf w s tk :
  convert_literal pf (TInt w) s = Ok tk -> wf_token tk = true.
Proof.
  rewrite convert_literal_int. destruct (parse_int (int_bits w) s) as [z|] eqn:E; [|discriminate].
  intros H. injection H as <-. unfold wf_token. cbn [kind val wf_val].
  apply parse_int_spec, in_irange_bits in E. rewrite E. destruct w; reflexivity.
Qed.

Corollary literal_uint_wf w s tk :
  convert_literal pf (TUint w) s = Ok tk -> wf_token tk = true.
Proof.
  rewrite convert_literal_uint. destruct (parse_uint (int_bits w) s) as [n|] eqn:E; [|discriminate].
  intros H. injection H as <-. unfold wf_token. cbn [kind val wf_val].
  apply parse_uint_spec, in_urange_bits in E. rewrite E. destruct w; reflexivity.
Qed.

Theorem literal_int_parse_fail w s :
  parse_int (int_bits w) s = None -> convert_literal pf (TInt w) s = Err EParse.
Proof. intros H. rewrite convert_literal_int, H. reflexivity. Qed.

(* exactly the standard library's behaviour: the text is a 64-bit integer; the conversion
   succeeds with that value iff the value is in the target's range *)
Theorem literal_int_iff_range w s z :
  parse_int 64 s = Some z ->
  convert_literal pf (TInt w) s =
  if in_irange w z then Ok (T (kind_of_int w) (VI w z)) else Err EParse.
Proof.
  intros H. rewrite convert_literal_int.
  destruct (in_irange w z) eqn:R.
  - apply in_irange_bits in R. rewrite (parse_int_narrow _ _ _ _ H R). reflexivity.
  - destruct (parse_int (int_bits w) s) as [z'|] eqn:E; [|reflexivity].
    pose proof (parse_int_mono _ 64 _ _ E (int_bits_le_64 w)) as H'.
    rewrite H in H'. injection H' as <-.
    apply parse_int_spec, in_irange_bits in E. rewrite E in R. discriminate R.
Qed.

Theorem literal_int_out_of_range w s z :
  parse_int 64 s = Some z -> in_irange w z = false ->
  convert_literal pf (TInt w) s = Err EParse.
Proof. intros H R. rewrite (literal_int_iff_range w s z H), R. reflexivity. Qed.

Theorem literal_uint_iff_range w s n :
  parse_uint 64 s = Some n ->
  convert_literal pf (TUint w) s =
  if in_urange w n then Ok (T (kind_of_uint w) (VU w n)) else Err EParse.
Proof.
  intros H. rewrite convert_literal_uint.
  destruct (in_urange w n) eqn:R.
  - apply in_urange_bits in R. rewrite (parse_uint_narrow _ _ _ _ H R). reflexivity.
  - destruct (parse_uint (int_bits w) s) as [n'|] eqn:E; [|reflexivity].
    pose proof (parse_uint_mono _ 64 _ _ E (int_bits_le_64 w)) as H'.
    rewrite H in H'. injection H' as <-.
    apply parse_uint_spec, in_urange_bits in E. rewrite E in R. discriminate R.
Qed.

Theorem literal_uint_out_of_range w s n :
  parse_uint 64 s = Some n -> in_urange w n = false ->
  convert_literal pf (TUint w) s = Err EParse.
Proof. intros H R. rewrite (literal_uint_iff_range w s n H), R. reflexivity. Qed.

Theorem literal_int_not_int64 w s :
  parse_int 64 s = None -> convert_literal pf (TInt w) s = Err EParse.
Proof.
  intros H. rewrite convert_literal_int.
  destruct (parse_int (int_bits w) s) as [z|] eqn:E; [|reflexivity].
  rewrite (parse_int_mono _ 64 _ _ E (int_bits_le_64 w)) in H. discriminate H.
Qed.

End Literal.

Definition no_pf : bytes -> N -> option N := fun _ _ => None.

Example literal_int8_128 : convert_literal no_pf (TInt W8) [49;50;56] (* "128" *) = Err EParse.
Proof. vm_compute. reflexivity. Qed.
Example literal_int8_127 :
  convert_literal no_pf (TInt W8) [49;50;55] (* "127" *) = Ok (T KInt8 (VI W8 127)).
Proof. vm_compute. reflexivity. Qed.
Example literal_int8_m128 :
  convert_literal no_pf (TInt W8) [45;49;50;56] (* "-128" *) = Ok (T KInt8 (VI W8 (-128))).
Proof. vm_compute. reflexivity. Qed.
Example literal_int8_m129 : convert_literal no_pf (TInt W8) [45;49;50;57] (* "-129" *) = Err EParse.
Proof. vm_compute. reflexivity. Qed.
Example literal_uint8_256 : convert_literal no_pf (TUint W8) [50;53;54] (* "256" *) = Err EParse.
Proof. vm_compute. reflexivity. Qed.
Example literal_uint8_255 :
  convert_literal no_pf (TUint W8) [50;53;53] (* "255" *) = Ok (T KUint8 (VU W8 255)).
Proof. vm_compute. reflexivity. Qed.
(* the hypotheses of literal_int_out_of_range are satisfiable: "128" is an int64, not an int8 *)
Example literal_int_out_of_range_ex :
  parse_int 64 [49;50;56] = Some 128%Z /\ in_irange W8 128 = false.
Proof. vm_compute. split; reflexivity. Qed.
(* and those of the range theorems *)
Example literal_int_in_range_ex : in_irange W8 127 = true.
Proof. exact (literal_int_in_range no_pf W8 [49;50;55] 127 literal_int8_127). Qed.
Example parse_int_mono_ex : parse_int 64 [45;49;50;56] = Some (-128)%Z.
Proof. apply (parse_int_mono 8); [vm_compute; reflexivity | discriminate]. Qed.

(* {"a":[1,true,null,"x"],"b":{}} *)
Definition ex_doc : json :=
  JObj [([97], JArr [JNum [49]; JBool true; JNull; JStr [120]]); ([98], JObj [])].

Example ex_doc_tokens :
  json_tokens ex_doc =
  [JDelim 123; JTStr [97]; JDelim 91; JTNum [49]; JTBool true; JTNull; JTStr [120]; JDelim 93;
   JTStr [98]; JDelim 123; JDelim 125; JDelim 125].
Proof. vm_compute. reflexivity. Qed.

Example ex_doc_decode :
  decode_json (json_tokens ex_doc) =
  ([T KObject VNone; T KString (VStr [97]); T KArray VNone; T KLiteral (VStr [49]);
    T KBool (VBool true); T KNil VNone; T KString (VStr [120]); T KArrayEnd VNone;
    T KString (VStr [98]); T KObject VNone; T KObjectEnd VNone; T KObjectEnd VNone], ENone).
Proof. rewrite decode_json_mirror. vm_compute. reflexivity. Qed.

(* the same by computation alone *)
Example ex_doc_decode_vm : decode_json (json_tokens ex_doc) = (mirror ex_doc, ENone).
Proof. vm_compute. reflexivity. Qed.

Example ex_doc_wf : Forall (fun t => wf_token t = true) (mirror ex_doc).
Proof. apply mirror_tokens_wf. vm_compute. reflexivity. Qed.

(* the first 4 tokens  { "a" [ 1  : two containers are open *)
Example ex_doc_truncated_depth : open_depth (firstn 4 (json_tokens ex_doc)) = 2%Z.
Proof. vm_compute. reflexivity. Qed.

Example ex_doc_truncated : snd (decode_json (firstn 4 (json_tokens ex_doc))) = EEnd.
Proof. apply decode_json_truncated_doc; [exact I | vm_compute; split; lia]. Qed.

Example ex_doc_truncated_vm :
  decode_json (firstn 4 (json_tokens ex_doc)) =
  ([T KObject VNone; T KString (VStr [97]); T KArray VNone; T KLiteral (VStr [49])], EEnd).
Proof. vm_compute. reflexivity. Qed.

(* every proper non-empty prefix of the example is an error *)
Example ex_doc_all_prefixes :
  forallb (fun k => match snd (decode_json (firstn k (json_tokens ex_doc))) with EEnd => true | _ => false end)
          (seq 1 11) = true.
Proof. vm_compute. reflexivity. Qed.

Example ex_two_docs :
  decode_json (flat_map json_tokens [ex_doc; JNum [55]]) = (mirror ex_doc ++ [T KLiteral (VStr [55])], ENone).
Proof. rewrite decode_json_app. cbn [flat_map]. rewrite app_nil_r. reflexivity. Qed.

(* a scalar document has no non-empty proper prefix, and the empty input is not an error of
   decode_json (the caller sees no token at all): the container hypothesis is needed *)
Example scalar_prefix_not_positive : open_depth (firstn 0 (json_tokens JNull)) = 0%Z.
Proof. reflexivity. Qed.

Print Assumptions json_map_mirror.
Print Assumptions jdepth_tokens.
Print Assumptions decode_json_mirror.
Print Assumptions decode_json_app.
Print Assumptions decode_json_truncated.
Print Assumptions truncated_depth_pos.
Print Assumptions decode_json_truncated_doc.
Print Assumptions mirror_tokens_wf.
Print Assumptions literal_int_in_range.
Print Assumptions literal_uint_in_range.
Print Assumptions literal_int_iff_range.
Print Assumptions literal_int_out_of_range.
Print Assumptions literal_uint_iff_range.
Print Assumptions literal_uint_out_of_range.
Print Assumptions literal_int_not_int64.
Print Assumptions parse_int_mono.
Print Assumptions parse_int_narrow.
Print Assumptions parse_int_narrow_Z.
