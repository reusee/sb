(* Proofs/AnyRegP.v — C11, the clause "type-name prefixes of registered types resurrect values of
   exactly those types".

   A value of a registered defined type, marshalled and decoded into an untyped target, comes back
   as an interface value whose DYNAMIC TYPE IS THAT TYPE, not merely a value with the same stream
   (any_registered_resurrects, _fuel, _stable); an unknown name resurrects nothing
   (any_unregistered_name_not_resurrected).  Then the schema-less domain of Proofs/AnyP.v with
   [Named n w] nodes at any depth (array items, tuple items, object field values, map values, and
   the top): [any_ok_reg], the relation [resurrected] between a token tree and the decoded value,
   any_reg_roundtrip / any_reg_roundtrip_stable, any_ok_reg_of_any_ok (conservative).  A [Named]
   node is decoded by the typed round trip of Proofs/RoundTripFullP.v ([reg_decode]); the nodes
   above it by the node lemmas of Proofs/AnyP.v. *)
From Coq Require Import List NArith ZArith Bool Lia ZifyBool ZifyNat ZifyN Arith.
From SbModel Require Import Spec.LexOrder Spec.Conform.
From SbModel Require Import Proofs.CompareP Proofs.UnmarshalP Proofs.MarshalP Proofs.AnyP Proofs.RoundTripFullP.
Import ListNotations.
Local Open Scope N_scope.

Definition reg_typed (R : registry) (n : bytes) (body : list token) : Prop :=
  exists t x, reg_lookup R n = Some t /\ reg_name t = Some n /\ wf_ty t = true /\ ty_ok t = true /\
              has_type t x = true /\ dom R t x /\
              marshal default_opts t x = Ok (T KTypeName (VStr n) :: body).

Lemma reg_decode pf o R t n x body rest :
  reg_lookup R n = Some t -> reg_name t = Some n -> wf_ty t = true -> ty_ok t = true ->
  has_type t x = true -> dom R t x -> marshal default_opts t x = Ok (T KTypeName (VStr n) :: body) ->
  exists x', equiv t x x' /\ marshal default_opts t x' = Ok (T KTypeName (VStr n) :: body) /\
    forall f, (2 * fsz x + length body + 3 <= f)%nat ->
      unm pf f o R TAny (GAny None) (T KTypeName (VStr n) :: body ++ rest) = Ok (GAny (Some (t, x')), rest).
Proof.
  intros Hreg Hrn Hwf Hok Hty Hd Hm.
  destruct (roundtrip_full_partial_stable pf o R t x _ rest Hwf Hok Hty Hd Hm) as (x' & He & Hm' & Hu).
  exists x'. split; [exact He|]. split; [exact Hm'|]. intros f Hf.
  destruct f as [|f]; [clear - Hf; lia|].
  (* the interface target looks the name up and decodes the body into a value of type [t]; that is
     what the typed target does with the whole stream, skipping the name *)
  rewrite (unm_any_tn pf o R f _ n t _ Hreg).
  rewrite <- (unm_skip pf o R f t (zero t) (T KTypeName (VStr n)) (body ++ rest) eq_refl)
    by (rewrite anyb_concrete, (reg_name_anyb t n Hrn Hok); reflexivity).
  change (T KTypeName (VStr n) :: body ++ rest) with ((T KTypeName (VStr n) :: body) ++ rest).
  rewrite (Hu (S f)) by (clear - Hf; cbn [length]; lia). reflexivity.
Qed.

(* C11, the registered clause at the top of the stream: every sufficient fuel gives the same value *)
Corollary any_registered_resurrects_stable pf o R n depr u x ts rest :
  let t := TNamed n true depr u in
  reg_lookup R n = Some t -> wf_ty t = true -> ty_ok t = true -> has_type t x = true -> dom R t x ->
  marshal default_opts t x = Ok ts ->
  exists x', equiv t x x' /\ marshal default_opts TAny (GAny (Some (t, x'))) = Ok ts /\
             forall f, (2 * fsz x + length ts + 2 <= f)%nat ->
               unm pf f o R TAny (GAny None) (ts ++ rest) = Ok (GAny (Some (t, x')), rest).
Proof.
  intros t Hreg Hwf Hok Hty Hd Hm.
  destruct (marshal_inv _ _ _ _ Hm) as (body & _ & Ets). cbn [t reg_prefix app] in Ets. subst ts.
  destruct (reg_decode pf o R t n x body rest Hreg eq_refl Hwf Hok Hty Hd Hm) as (x' & He & Hm' & Hu).
  exists x'. split; [exact He|]. split; [rewrite marshal_any; exact Hm'|].
  intros f Hf. apply Hu. clear - Hf. cbn [length] in Hf. lia.
Qed.

Theorem any_registered_resurrects_fuel pf o R n depr u x ts rest f :
  let t := TNamed n true depr u in
  reg_lookup R n = Some t -> wf_ty t = true -> ty_ok t = true -> has_type t x = true -> dom R t x ->
  marshal default_opts t x = Ok ts -> (2 * fsz x + length ts + 2 <= f)%nat ->
  exists x', unm pf f o R TAny (GAny None) (ts ++ rest) = Ok (GAny (Some (t, x')), rest) /\
             equiv t x x' /\ marshal default_opts TAny (GAny (Some (t, x'))) = Ok ts.
Proof.
  intros t Hreg Hwf Hok Hty Hd Hm Hf.
  destruct (any_registered_resurrects_stable pf o R n depr u x ts rest Hreg Hwf Hok Hty Hd Hm) as (x' & He & Hm' & Hu).
  exists x'. split; [apply Hu, Hf|split; assumption].
Qed.

Theorem any_registered_resurrects pf o R n depr u x ts rest :
  let t := TNamed n true depr u in
  reg_lookup R n = Some t -> wf_ty t = true -> ty_ok t = true -> has_type t x = true -> dom R t x ->
  marshal default_opts t x = Ok ts ->
  exists f x', unm pf f o R TAny (GAny None) (ts ++ rest) = Ok (GAny (Some (t, x')), rest) /\
               equiv t x x' /\ marshal default_opts TAny (GAny (Some (t, x'))) = Ok ts.
Proof.
  intros t Hreg Hwf Hok Hty Hd Hm. exists (2 * fsz x + length ts + 2)%nat.
  apply (any_registered_resurrects_fuel pf o R n depr u x ts rest _ Hreg Hwf Hok Hty Hd Hm), le_n.
Qed.

Lemma registered_stream_head n depr u x ts :
  marshal default_opts (TNamed n true depr u) x = Ok ts -> exists body, ts = T KTypeName (VStr n) :: body.
Proof. intros Hm. destruct (marshal_inv _ _ _ _ Hm) as (b & _ & E). exists b. exact E. Qed.

(* the negative companion: when the registry does not know the name, the prefix resurrects nothing:
   whatever the decoder answers is what it answers on the stream without the prefix, so a result
   never has the dynamic type named by the prefix unless the rest of the stream says so itself;
   in particular the re-marshalled stream has lost the prefix *)
Theorem any_unregistered_name_not_resurrected pf o R n ts f :
  reg_lookup R n = None ->
  unm pf (S f) o R TAny (GAny None) (T KTypeName (VStr n) :: ts) = unm pf f o R TAny (GAny None) ts.
Proof. intros Hn. apply any_unregistered_name_dropped. exact Hn. Qed.

Theorem any_unregistered_name_lost pf o R n v rest f :
  reg_lookup R n = None -> any_ok R v -> (length (flatten v) < f)%nat ->
  unm pf f o R TAny (GAny None) (flatten (Named n v) ++ rest) = Ok (dec v, rest) /\
  marshal default_opts TAny (dec v) = Ok (flatten v) /\
  flatten v <> flatten (Named n v).
Proof.
  intros Hn Hok Hf. destruct f as [|f]; [destruct (Nat.nlt_0_r _ Hf)|]. split; [|split].
  - cbn [flatten app]. rewrite (any_unregistered_name_dropped pf o R f _ n _ Hn).
    apply (any_unm pf o R v f rest Hok), le_S_n, Hf.
  - apply (any_marshal R v Hok).
  - cbn [flatten]. intros E. apply (f_equal (@length token)) in E. cbn [length] in E.
    apply (Nat.neq_succ_diag_r _ E).
Qed.

Definition allP (ok : value -> Prop) : list value -> Prop :=
  fix all (l : list value) : Prop := match l with [] => True | x :: r => ok x /\ all r end.

(* object items, as [obj_ok] of Proofs/AnyP.v, over a Prop-valued item predicate *)
Definition obj_okP (ok : value -> Prop) : list bytes -> list value -> Prop :=
  fix obj (seen : list bytes) (l : list value) {struct l} : Prop :=
    match l with
    | [] => True
    | Leaf (T k (VStr n)) :: v :: r =>
        k = KString /\ is_exported_ident n = true /\ existsb (fun s => bytes_eqb s n) seen = false /\
        ok v /\ is_nil_leaf v = false /\ obj (seen ++ [n]) r
    | _ => False
    end.

(* map items, as [map_ok] *)
Definition map_okP (ok : value -> Prop) : option token -> list value -> Prop :=
  fix mp (prev : option token) (l : list value) {struct l} : Prop :=
    match l with
    | [] => True
    | Leaf k :: v :: r => key_ok k = true /\ lt_prev prev k = true /\ ok v /\ mp (Some k) r
    | _ => False
    end.

(* The schema-less domain with registered values: [any_okb] of Proofs/AnyP.v, plus [Named n w]
   nodes wherever a value may stand (array items, tuple items, object field values, map values,
   the top) — not as map keys, not as object field names. *)
Fixpoint any_ok_reg (R : registry) (v : value) {struct v} : Prop :=
  match v with
  | Leaf t => leaf_ok t = true
  | Comp ko kc items =>
      if (ko =? KArray) && (kc =? KArrayEnd) then allP (any_ok_reg R) items
      else if (ko =? KTuple) && (kc =? KTupleEnd) then allP (any_ok_reg R) items /\ (length items <= 50)%nat
      else if (ko =? KObject) && (kc =? KObjectEnd) then obj_okP (any_ok_reg R) [] items
      else if (ko =? KMap) && (kc =? KMapEnd) then map_okP (any_ok_reg R) None items
      else False
  | Named n w => reg_typed R n (flatten w)
  end.

Lemma any_ok_reg_comp R ko kc items :
  any_ok_reg R (Comp ko kc items) =
  if (ko =? KArray) && (kc =? KArrayEnd) then allP (any_ok_reg R) items
  else if (ko =? KTuple) && (kc =? KTupleEnd) then allP (any_ok_reg R) items /\ (length items <= 50)%nat
  else if (ko =? KObject) && (kc =? KObjectEnd) then obj_okP (any_ok_reg R) [] items
  else if (ko =? KMap) && (kc =? KMapEnd) then map_okP (any_ok_reg R) None items
  else False.
Proof. reflexivity. Qed.

Definition nil_items (l : list gval) : bool := match l with [] => true | _ => false end.

(* The decoded value, as a relation between the token tree and the value the untyped target
   holds: the value [dec] of Proofs/AnyP.v builds, except that at every [Named n w] node stands
   an interface value whose dynamic type is THE TYPE THE REGISTRY GIVES FOR n, holding a value of
   that type whose stream is the node's stream.  (Object names and map keys are ordinary items of
   the tree: leaves.) *)
Inductive resurrected (R : registry) : value -> gval -> Prop :=
| RS_leaf t : resurrected R (Leaf t) (leaf_gval t)
| RS_array items gs : Forall2 (resurrected R) items gs ->
    resurrected R (Comp KArray KArrayEnd items) (GAny (Some (TSlice TAny, GList (nil_items gs) gs)))
| RS_tuple items gs : Forall2 (resurrected R) items gs ->
    resurrected R (Comp KTuple KTupleEnd items) (GAny (Some (TFunc (map dyn_ty gs), GFunc (Some (map dyn_val gs)))))
| RS_object items gs : Forall2 (resurrected R) items gs ->
    resurrected R (Comp KObject KObjectEnd items) (GAny (Some (TStruct (dfields gs), GStruct (dvals gs))))
| RS_map items gs : Forall2 (resurrected R) items gs ->
    resurrected R (Comp KMap KMapEnd items) (GAny (Some (TMap TAny TAny, GMap false (dentries gs))))
| RS_named n w t x' : reg_lookup R n = Some t -> reg_name t = Some n ->
    marshal default_opts t x' = Ok (flatten (Named n w)) ->
    resurrected R (Named n w) (GAny (Some (t, x'))).

Lemma is_nil_items_eq (l : list gval) : match l with [] => true | _ => false end = nil_items l.
Proof. reflexivity. Qed.

Lemma map_okP_one ok prev a : map_okP ok prev [a] -> False.
Proof. destruct a; intros H; exact H. Qed.

Lemma obj_okP_one ok seen a : obj_okP ok seen [a] -> False.
Proof. destruct a as [[k [ | | | | | | |s|]]| |]; intros H; exact H. Qed.

Lemma obj_okP_items ok : forall items seen, obj_okP ok seen items -> obj_items ok seen items.
Proof.
  intros items. induction items as [|a|a b r IH] using list_ind2; intros seen H.
  - constructor.
  - contradiction (obj_okP_one _ _ _ H).
  - destruct a as [[k [ | | | | | | |n|]]| |]; try contradiction H.
    destruct H as (-> & Hid & Hseen & Hb & Hnil & Hr). constructor; try assumption. apply IH, Hr.
Qed.

Lemma map_okP_items ok : forall items prev, map_okP ok prev items -> map_items ok prev items.
Proof.
  intros items. induction items as [|a|a b r IH] using list_ind2; intros prev H.
  - constructor.
  - contradiction (map_okP_one _ _ _ H).
  - destruct a as [k| |]; try contradiction H.
    destruct H as (Hk & Hlt & Hb & Hr). constructor; try assumption. apply IH, Hr.
Qed.

Lemma allP_Forall (ok : value -> Prop) items : allP ok items <-> Forall ok items.
Proof.
  induction items as [|x r IH]; [split; constructor|]. split.
  - intros [Hx Hr]. constructor; [exact Hx|apply IH, Hr].
  - intros H. split; [exact (Forall_inv H)|apply IH, (Forall_inv_tail H)].
Qed.

Lemma any_ok_reg_comp_inv R ko kc items : any_ok_reg R (Comp ko kc items) ->
  comp_shape (any_ok_reg R) ko kc items /\ Forall (any_ok_reg R) items.
Proof.
  rewrite any_ok_reg_comp. intros H.
  destruct ((ko =? KArray) && (kc =? KArrayEnd)) eqn:E.
  { apply kinds_eqb in E. destruct E as [-> ->]. split; [constructor|apply allP_Forall, H]. }
  clear E. destruct ((ko =? KTuple) && (kc =? KTupleEnd)) eqn:E.
  { apply kinds_eqb in E. destruct E as [-> ->]. destruct H as [H H50].
    split; [constructor; exact H50|apply allP_Forall, H]. }
  clear E. destruct ((ko =? KObject) && (kc =? KObjectEnd)) eqn:E.
  { apply kinds_eqb in E. destruct E as [-> ->]. apply obj_okP_items in H.
    split; [constructor; exact H|apply (obj_items_all _ name_leaf_ok _ _ H)]. }
  clear E. destruct ((ko =? KMap) && (kc =? KMapEnd)) eqn:E; [|contradiction H].
  apply kinds_eqb in E. destruct E as [-> ->]. apply map_okP_items in H.
  split; [constructor; exact H|apply (map_items_all _ (fun k Hk => proj1 (key_ok_inv k Hk)) _ _ H)].
Qed.

Lemma any_ok_reg_hd R v : any_ok_reg R v -> okhd v.
Proof.
  destruct v as [t|ko kc items|n w]; intros H.
  - apply okhd_leaf, H.
  - apply (okhd_comp (any_ok_reg R)), any_ok_reg_comp_inv, H.
  - exists (T KTypeName (VStr n)), (flatten w). split; reflexivity.
Qed.

Section DecodeR.
Variable pf : bytes -> N -> option N.
Variable o : copts.
Variable R : registry.

Definition node_ok (v : value) : Prop :=
  any_ok_reg R v -> forall rest, exists g B, resurrected R v g /\ decoded v g /\
    forall f, (B <= f)%nat -> unm pf f o R TAny (GAny None) (flatten v ++ rest) = Ok (g, rest).

Lemma items_pick : forall items, Forall node_ok items -> Forall (any_ok_reg R) items ->
  forall tail, exists gs B, Forall2 (resurrected R) items gs /\
    forall f, (B <= f)%nat -> runs (unm pf f o R) tail items gs.
Proof.
  induction 1 as [|x r Hx _ IH]; intros Hok tail.
  - exists [], O. split; [constructor|]. intros f _. constructor.
  - pose proof (Forall_inv Hok) as Hox. destruct (IH (Forall_inv_tail Hok) tail) as (gs & B1 & Hres & Hruns).
    destruct (Hx Hox (flat_map flatten r ++ tail)) as (g & B2 & Hr & Hd & Hu).
    exists (g :: gs), (Nat.max B1 B2). split; [constructor; assumption|]. intros f Hf. constructor.
    + apply (any_ok_reg_hd R), Hox.
    + exact Hd.
    + apply Hu. clear - Hf. lia.
    + apply Hruns. clear - Hf. lia.
Qed.

Theorem any_reg_all : forall v, node_ok v.
Proof.
  induction v as [t|ko kc items IH|n w _] using value_ind2; intros Hok rest.
  - exists (leaf_gval t), 1%nat. split; [constructor|]. split; [apply leaf_decoded, Hok|].
    intros f Hf. destruct f as [|f]; [destruct (Nat.nle_succ_0 _ Hf)|]. apply leaf_unm, Hok.
  - destruct (any_ok_reg_comp_inv R ko kc items Hok) as [Hsh Hall].
    destruct (items_pick items IH Hall (T kc VNone :: rest)) as (gs & B & Hres & Hruns).
    exists (comp_gval ko gs), (S (S B)). split; [|split].
    + destruct Hsh; constructor; exact Hres.
    + apply (decoded_comp _ ko kc items gs Hsh), (runs_decoded (Hruns B (le_n B))).
    + intros f Hf. destruct f as [|f]; [destruct (Nat.nle_succ_0 _ Hf)|].
      apply (unm_comp pf o R _ f ko kc items gs rest Hsh); [apply Hruns|]; clear - Hf; lia.
  - cbn [any_ok_reg] in Hok. destruct Hok as (t & x & Hreg & Hrn & Hwf & Hok & Hty & Hd & Hm).
    destruct (reg_decode pf o R t n x (flatten w) rest Hreg Hrn Hwf Hok Hty Hd Hm) as (x' & He & Hm' & Hu).
    exists (GAny (Some (t, x'))), (2 * fsz x + length (flatten w) + 3)%nat.
    split; [constructor; assumption|]. split; [|exact Hu].
    split; [rewrite marshal_any; exact Hm'|]. split; [intros k [=]|intros _; exists t, x'; reflexivity].
Qed.

End DecodeR.

Theorem any_reg_roundtrip_stable pf o R v rest : any_ok_reg R v ->
  exists g, resurrected R v g /\ marshal default_opts TAny g = Ok (flatten v) /\
            exists f0, forall f, (f0 <= f)%nat -> unm pf f o R TAny (GAny None) (flatten v ++ rest) = Ok (g, rest).
Proof.
  intros Hok. destruct (any_reg_all pf o R v Hok rest) as (g & B & Hr & (Hm & _) & Hu).
  exists g. split; [exact Hr|]. split; [exact Hm|]. exists B. exact Hu.
Qed.

Theorem any_reg_roundtrip_resurrected pf o R v rest : any_ok_reg R v ->
  exists f g, unm pf f o R TAny (GAny None) (flatten v ++ rest) = Ok (g, rest) /\
              marshal default_opts TAny g = Ok (flatten v) /\ resurrected R v g.
Proof.
  intros Hok. destruct (any_reg_roundtrip_stable pf o R v rest Hok) as (g & Hr & Hm & f0 & Hu).
  exists f0, g. split; [apply Hu, le_n|]. split; assumption.
Qed.

(* the statement of C11 over the extended domain *)
Theorem any_reg_roundtrip pf o R v rest : any_ok_reg R v ->
  exists f g, unm pf f o R TAny (GAny None) (flatten v ++ rest) = Ok (g, rest) /\
              marshal default_opts TAny g = Ok (flatten v).
Proof.
  intros Hok. destruct (any_reg_roundtrip_resurrected pf o R v rest Hok) as (f & g & Hu & Hm & _).
  exists f, g. split; assumption.
Qed.

Lemma resurrected_inv R v g : resurrected R v g ->
  match v with
  | Leaf t => g = leaf_gval t
  | Comp ko kc items => exists gs, g = comp_gval ko gs /\ Forall2 (resurrected R) items gs
  | Named n w => exists t x', g = GAny (Some (t, x')) /\ reg_lookup R n = Some t /\ reg_name t = Some n /\
                              marshal default_opts t x' = Ok (flatten (Named n w))
  end.
Proof.
  intros H. destruct H as [t|items gs HF|items gs HF|items gs HF|items gs HF|n w t x' Hreg Hrn Hm];
    [reflexivity|exists gs; split; [reflexivity|exact HF]..|].
  exists t, x'. repeat split; assumption.
Qed.

Lemma resurrected_leaf R k g : resurrected R (Leaf k) g -> g = leaf_gval k.
Proof. exact (resurrected_inv R (Leaf k) g). Qed.

Theorem resurrected_named R n w g : resurrected R (Named n w) g ->
  exists t x', g = GAny (Some (t, x')) /\ reg_lookup R n = Some t /\ reg_name t = Some n /\
               marshal default_opts t x' = Ok (flatten (Named n w)).
Proof. exact (resurrected_inv R (Named n w) g). Qed.

Theorem resurrected_array R kc items g : resurrected R (Comp KArray kc items) g ->
  exists gs, g = GAny (Some (TSlice TAny, GList (nil_items gs) gs)) /\ Forall2 (resurrected R) items gs.
Proof. exact (resurrected_inv R (Comp KArray kc items) g). Qed.

Theorem resurrected_tuple R kc items g : resurrected R (Comp KTuple kc items) g ->
  exists gs, g = GAny (Some (TFunc (map dyn_ty gs), GFunc (Some (map dyn_val gs)))) /\
             Forall2 (resurrected R) items gs.
Proof. exact (resurrected_inv R (Comp KTuple kc items) g). Qed.

Theorem resurrected_object R kc items g : resurrected R (Comp KObject kc items) g ->
  exists gs, g = GAny (Some (TStruct (dfields gs), GStruct (dvals gs))) /\ Forall2 (resurrected R) items gs.
Proof. exact (resurrected_inv R (Comp KObject kc items) g). Qed.

Theorem resurrected_map R kc items g : resurrected R (Comp KMap kc items) g ->
  exists gs, g = GAny (Some (TMap TAny TAny, GMap false (dentries gs))) /\ Forall2 (resurrected R) items gs.
Proof. exact (resurrected_inv R (Comp KMap kc items) g). Qed.

Lemma Forall2_nth_error {A B} (P : A -> B -> Prop) : forall l1 l2, Forall2 P l1 l2 ->
  forall i a, nth_error l1 i = Some a -> exists b, nth_error l2 i = Some b /\ P a b.
Proof.
  induction 1 as [|x y l1 l2 Hxy _ IH]; intros i a Hi; [destruct i; discriminate Hi|].
  destruct i as [|i]; cbn [nth_error] in Hi |- *.
  - injection Hi as <-. exists y. split; [reflexivity|exact Hxy].
  - apply IH, Hi.
Qed.

Lemma Forall2_pairs {A B} (P : A -> B -> Prop) : forall l1 l2, Forall2 P l1 l2 ->
  Forall2 (fun a b => P (fst a) (fst b) /\ P (snd a) (snd b)) (pairs l1) (pairs l2).
Proof.
  intros l1. induction l1 as [|a|a b r IH] using list_ind2; intros l2 H.
  - inversion H; subst. constructor.
  - inversion H as [|x y l l' Hxy Hl]; subst. inversion Hl; subst. constructor.
  - apply Forall2_inv2 in H. destruct H as (a' & b' & r' & -> & Ha & Hb & Hr).
    cbn [pairs]. constructor; [split; assumption|apply IH, Hr].
Qed.

Lemma resurrected_nth R items gs i n w : Forall2 (resurrected R) items gs ->
  nth_error items i = Some (Named n w) ->
  exists t x', nth_error gs i = Some (GAny (Some (t, x'))) /\ reg_lookup R n = Some t /\
               marshal default_opts t x' = Ok (flatten (Named n w)).
Proof.
  intros HF Hi. destruct (Forall2_nth_error _ _ _ HF i _ Hi) as (b & Hb & Hr).
  destruct (resurrected_named R n w b Hr) as (t & x' & -> & Hreg & _ & Hm).
  exists t, x'. repeat split; assumption.
Qed.

Lemma resurrected_nth_pair R items gs i a n w : Forall2 (resurrected R) items gs ->
  nth_error (pairs items) i = Some (Leaf a, Named n w) ->
  exists t x', nth_error (pairs gs) i = Some (leaf_gval a, GAny (Some (t, x'))) /\ reg_lookup R n = Some t /\
               marshal default_opts t x' = Ok (flatten (Named n w)).
Proof.
  intros HF Hi.
  destruct (Forall2_nth_error _ _ _ (Forall2_pairs _ _ _ HF) i _ Hi) as ([bk bv] & Hb & Hk & Hv).
  cbn [fst snd] in Hk, Hv. apply resurrected_leaf in Hk. subst bk.
  destruct (resurrected_named R n w bv Hv) as (t & x' & -> & Hreg & _ & Hm).
  exists t, x'. repeat split; assumption.
Qed.

Corollary resurrected_array_item R kc items g i n w :
  resurrected R (Comp KArray kc items) g -> nth_error items i = Some (Named n w) ->
  exists gs t x', g = GAny (Some (TSlice TAny, GList (nil_items gs) gs)) /\
                  nth_error gs i = Some (GAny (Some (t, x'))) /\ reg_lookup R n = Some t /\
                  marshal default_opts t x' = Ok (flatten (Named n w)).
Proof.
  intros H Hi. destruct (resurrected_array R kc items g H) as (gs & -> & HF).
  destruct (resurrected_nth R items gs i n w HF Hi) as (t & x' & Hb & Hreg & Hm).
  exists gs, t, x'. repeat split; assumption.
Qed.

Corollary resurrected_tuple_item R kc items g i n w :
  resurrected R (Comp KTuple kc items) g -> nth_error items i = Some (Named n w) ->
  exists tys vals t x', g = GAny (Some (TFunc tys, GFunc (Some vals))) /\
                        nth_error tys i = Some t /\ nth_error vals i = Some x' /\ reg_lookup R n = Some t /\
                        marshal default_opts t x' = Ok (flatten (Named n w)).
Proof.
  intros H Hi. destruct (resurrected_tuple R kc items g H) as (gs & -> & HF).
  destruct (resurrected_nth R items gs i n w HF Hi) as (t & x' & Hb & Hreg & Hm).
  exists (map dyn_ty gs), (map dyn_val gs), t, x'. rewrite !nth_error_map, Hb. repeat split; assumption.
Qed.

Corollary resurrected_object_field R kc items g i nm n w :
  resurrected R (Comp KObject kc items) g -> nth_error (pairs items) i = Some (Leaf nm, Named n w) ->
  exists fs vals t x', g = GAny (Some (TStruct fs, GStruct vals)) /\
                       nth_error fs i = Some (gname (leaf_gval nm), true, t) /\ nth_error vals i = Some x' /\
                       reg_lookup R n = Some t /\ marshal default_opts t x' = Ok (flatten (Named n w)).
Proof.
  intros H Hi. destruct (resurrected_object R kc items g H) as (gs & -> & HF).
  destruct (resurrected_nth_pair R items gs i nm n w HF Hi) as (t & x' & Hb & Hreg & Hm).
  exists (dfields gs), (dvals gs), t, x'. unfold dfields, dvals. rewrite !nth_error_map, Hb.
  repeat split; assumption.
Qed.

Corollary resurrected_map_value R kc items g i k n w :
  resurrected R (Comp KMap kc items) g -> nth_error (pairs items) i = Some (Leaf k, Named n w) ->
  exists es t x', g = GAny (Some (TMap TAny TAny, GMap false es)) /\
                  nth_error es i = Some (key_gval k, GAny (Some (t, x'))) /\
                  reg_lookup R n = Some t /\ marshal default_opts t x' = Ok (flatten (Named n w)).
Proof.
  intros H Hi. destruct (resurrected_map R kc items g H) as (gs & -> & HF).
  destruct (resurrected_nth_pair R items gs i k n w HF Hi) as (t & x' & Hb & Hreg & Hm).
  exists (dentries gs), t, x'. unfold dentries. rewrite nth_error_map, Hb. repeat split; assumption.
Qed.

Lemma obj_okP_intro (okP okQ : value -> Prop) : forall seen items, obj_items okP seen items ->
  Forall okQ items -> obj_okP okQ seen items.
Proof.
  induction 1 as [seen|seen n b r Hid Hseen _ Hnil _ IH]; intros HF; [exact I|].
  apply Forall_inv_tail in HF. cbn [obj_okP]. repeat split; try assumption.
  - exact (Forall_inv HF).
  - apply IH, (Forall_inv_tail HF).
Qed.

Lemma map_okP_intro (okP okQ : value -> Prop) : forall prev items, map_items okP prev items ->
  Forall okQ items -> map_okP okQ prev items.
Proof.
  induction 1 as [prev|prev k b r Hk Hlt _ _ IH]; intros HF; [exact I|].
  apply Forall_inv_tail in HF. cbn [map_okP]. repeat split; try assumption.
  - exact (Forall_inv HF).
  - apply IH, (Forall_inv_tail HF).
Qed.

Theorem any_ok_reg_of_any_ok R v : any_ok R v -> any_ok_reg R v.
Proof.
  unfold any_ok. induction v as [t|ko kc items IH|n w _] using value_ind2; intros Hok.
  - exact Hok.
  - destruct (any_okb_comp_inv ko kc items Hok) as [Hsh Hall].
    pose proof (BytesP.Forall_mp _ _ _ IH Hall) as Hall'.
    destruct Hsh as [items|items H50|items Hobj|items Hmap].
    + apply allP_Forall, Hall'.
    + split; [apply allP_Forall, Hall'|exact H50].
    + exact (obj_okP_intro _ _ [] items Hobj Hall').
    + exact (map_okP_intro _ _ None items Hmap Hall').
  - discriminate Hok.
Qed.

(* type R1 struct { X int; Y any }, registered *)
Definition R1 : ty := TNamed [82; 49] true [] (TStruct [([88], true, TInt WNat); ([89], true, TAny)]).
Definition RegR1 : registry := [([82; 49], R1)].
Definition r1 (a : Z) (y : gval) : gval := GAny (Some (R1, GStruct [GInt a; y])).

(* []any{R1{1, "s"}, 5, R1{2, R1{3, nil}}} *)
Definition ex_reg_g : gval :=
  GAny (Some (TSlice TAny,
              GList false [r1 1 (GAny (Some (TString, GStr [115])));
                           GAny (Some (TInt WNat, GInt 5));
                           r1 2 (r1 3 (GAny None))])).
Definition ex_reg_ts : list token :=
  Eval vm_compute in match marshal default_opts TAny ex_reg_g with Ok ts => ts | _ => [] end.

(* its stream as a token tree: three items, two of them [Named] nodes, the last one with a
   [Named] node inside its own (typed) stream *)
Definition lX : value := Leaf (T KString (VStr [88])).
Definition lY : value := Leaf (T KString (VStr [89])).
Definition lI (z : Z) : value := Leaf (T KInt (VI WNat z)).
Definition ex_reg_v : value :=
  Comp KArray KArrayEnd
    [Named [82; 49] (Comp KObject KObjectEnd [lX; lI 1; lY; Leaf (T KString (VStr [115]))]);
     lI 5;
     Named [82; 49] (Comp KObject KObjectEnd
                       [lX; lI 2; lY; Named [82; 49] (Comp KObject KObjectEnd [lX; lI 3; lY; Leaf (T KNil VNone)])])].

Example ex_reg_stream :
  marshal default_opts TAny ex_reg_g = Ok ex_reg_ts /\ flatten ex_reg_v = ex_reg_ts /\ length ex_reg_ts = 23%nat.
Proof. split; [|split]; vm_compute; reflexivity. Qed.

(* the hypotheses of any_registered_resurrects hold of the first item ... *)
Example any_registered_resurrects_ex_hyps :
  let x := GStruct [GInt 1; GAny (Some (TString, GStr [115]))] in
  reg_lookup RegR1 [82; 49] = Some R1 /\ wf_ty R1 = true /\ ty_ok R1 = true /\ has_type R1 x = true /\
  dom RegR1 R1 x /\
  marshal default_opts R1 x =
    Ok [T KTypeName (VStr [82; 49]); T KObject VNone; T KString (VStr [88]); T KInt (VI WNat 1);
        T KString (VStr [89]); T KString (VStr [115]); T KObjectEnd VNone].
Proof.
  cbv zeta. split; [reflexivity|]. split; [reflexivity|]. split; [reflexivity|]. split; [vm_compute; reflexivity|].
  split; [|vm_compute; reflexivity]. vm_compute. repeat first [split | intros _]; reflexivity.
Qed.

(* ... and its conclusion, computed: the untyped target holds a value of type R1 *)
Example any_registered_resurrects_ex_run :
  let x := GStruct [GInt 1; GAny (Some (TString, GStr [115]))] in
  forall ts, marshal default_opts R1 x = Ok ts ->
  unm pf0 30 (Opts false true false) RegR1 TAny (GAny None) (ts ++ [T KBool (VBool true)])
    = Ok (GAny (Some (R1, x)), [T KBool (VBool true)]) /\
  marshal default_opts TAny (GAny (Some (R1, x))) = Ok ts.
Proof.
  cbv zeta. intros ts Hm.
  destruct any_registered_resurrects_ex_hyps as (_ & _ & _ & _ & _ & Hm0). cbv zeta in Hm0.
  rewrite Hm0 in Hm. injection Hm as <-. split; vm_compute; reflexivity.
Qed.

(* the hypothesis of any_reg_roundtrip holds of the whole stream *)
Example ex_reg_ok : any_ok_reg RegR1 ex_reg_v.
Proof.
  cbn [any_ok_reg ex_reg_v allP]. change ((KArray =? KArray) && (KArrayEnd =? KArrayEnd)) with true. cbv iota.
  cbn [allP any_ok_reg lI]. split; [|split; [reflexivity|split; [|exact I]]].
  - exists R1, (GStruct [GInt 1; GAny (Some (TString, GStr [115]))]).
    split; [reflexivity|]. split; [reflexivity|]. split; [reflexivity|]. split; [reflexivity|].
    split; [vm_compute; reflexivity|]. split; [|vm_compute; reflexivity].
    vm_compute. repeat first [split | intros _]; reflexivity.
  - exists R1, (GStruct [GInt 2; r1 3 (GAny None)]).
    split; [reflexivity|]. split; [reflexivity|]. split; [reflexivity|]. split; [reflexivity|].
    split; [vm_compute; reflexivity|]. split; [|vm_compute; reflexivity].
    vm_compute. repeat first [split | intros _]; reflexivity.
Qed.

(* decoding it: values of type R1 at the three positions (item 0, item 2, and field Y of item 2),
   and the identical stream again *)
Example ex_reg_run :
  unm pf0 100 default_opts RegR1 TAny (GAny None) (ex_reg_ts ++ [T KBool (VBool true)])
    = Ok (ex_reg_g, [T KBool (VBool true)]) /\
  marshal default_opts TAny ex_reg_g = Ok ex_reg_ts /\
  resurrected RegR1 ex_reg_v ex_reg_g /\
  (exists x0 x2 x2y,
     ex_reg_g = GAny (Some (TSlice TAny, GList false [GAny (Some (R1, x0)); GAny (Some (TInt WNat, GInt 5)); GAny (Some (R1, x2))])) /\
     x2 = GStruct [GInt 2; GAny (Some (R1, x2y))]).
Proof.
  split; [vm_compute; reflexivity|]. split; [vm_compute; reflexivity|]. split.
  - apply (RS_array RegR1 _ [r1 1 (GAny (Some (TString, GStr [115]))); GAny (Some (TInt WNat, GInt 5)); r1 2 (r1 3 (GAny None))]).
    constructor; [|constructor; [|constructor; [|constructor]]].
    + apply RS_named; [reflexivity|reflexivity|vm_compute; reflexivity].
    + exact (RS_leaf RegR1 (T KInt (VI WNat 5))).
    + apply RS_named; [reflexivity|reflexivity|vm_compute; reflexivity].
  - eexists; eexists; eexists. split; reflexivity.
Qed.

Example ex_reg_thm : forall pf o rest,
  exists f g, unm pf f o RegR1 TAny (GAny None) (ex_reg_ts ++ rest) = Ok (g, rest) /\
              marshal default_opts TAny g = Ok ex_reg_ts /\
              exists gs t0 x0 t2 x2, g = GAny (Some (TSlice TAny, GList false gs)) /\
                nth_error gs 0 = Some (GAny (Some (t0, x0))) /\ t0 = R1 /\
                nth_error gs 2 = Some (GAny (Some (t2, x2))) /\ t2 = R1.
Proof.
  intros pf o rest.
  destruct (any_reg_roundtrip_resurrected pf o RegR1 ex_reg_v rest ex_reg_ok) as (f & g & Hu & Hm & Hr).
  destruct ex_reg_stream as (_ & Efl & _). rewrite Efl in Hu, Hm.
  exists f, g. split; [exact Hu|]. split; [exact Hm|].
  destruct (resurrected_array_item RegR1 _ _ g 0 _ _ Hr eq_refl) as (gs & t0 & x0 & Eg & H0 & Hreg0 & _).
  destruct (resurrected_array_item RegR1 _ _ g 2 _ _ Hr eq_refl) as (gs' & t2 & x2 & Eg' & H2 & Hreg2 & _).
  rewrite Eg in Eg'. injection Eg' as _ <-.
  injection Hreg0 as <-. injection Hreg2 as <-.
  exists gs, R1, x0, R1, x2. split; [|repeat split; assumption].
  rewrite Eg. destruct gs; [discriminate H0|reflexivity].
Qed.

(* without the registration the same stream is not decoded at all: the names are dropped, and the
   innermost R1{3, nil} then reads as an object with a Nil field *)
Example ex_reg_unregistered :
  unm pf0 100 default_opts [] TAny (GAny None) ex_reg_ts = Err EEnd /\
  unm pf0 100 default_opts [] TAny (GAny None) [T KTypeName (VStr [82; 49]); T KInt (VI WNat 5)]
    = Ok (GAny (Some (TInt WNat, GInt 5)), []).
Proof. split; vm_compute; reflexivity. Qed.

(* outside the proved domain, on an example: a registered value as a map KEY also comes back at
   its type and marshals identically (type K int, registered) *)
Definition K1 : ty := TNamed [75] true [] (TInt WNat).
Example ex_reg_key :
  let g := GAny (Some (TMap TAny TAny, GMap false [(GAny (Some (K1, GInt 1)), GAny (Some (TString, GStr [97])));
                                                  (GAny (Some (K1, GInt 2)), GAny None)])) in
  let ts := [T KMap VNone; T KTypeName (VStr [75]); T KInt (VI WNat 1); T KString (VStr [97]);
             T KTypeName (VStr [75]); T KInt (VI WNat 2); T KNil VNone; T KMapEnd VNone] in
  marshal default_opts TAny g = Ok ts /\
  unm pf0 100 default_opts [([75], K1)] TAny (GAny None) ts = Ok (g, []).
Proof. split; vm_compute; reflexivity. Qed.

(* outside the proved domain, on an example: a registered defined type over a pointer to an
   interface (excluded by [ty_ok]) also comes back at its type when the target is untyped *)
Definition P1 : ty := TNamed [80] true [] (TPtr TAny).
Example ex_reg_ptr_any :
  let g := GAny (Some (P1, GPtr (Some (r1 7 (GAny None))))) in
  let ts := [T KTypeName (VStr [80]); T KTypeName (VStr [82; 49]); T KObject VNone; T KString (VStr [88]);
             T KInt (VI WNat 7); T KString (VStr [89]); T KNil VNone; T KObjectEnd VNone] in
  ty_ok P1 = false /\ marshal default_opts TAny g = Ok ts /\
  unm pf0 100 default_opts (([80], P1) :: RegR1) TAny (GAny None) ts = Ok (g, []).
Proof. cbv zeta. split; [reflexivity|]. split; vm_compute; reflexivity. Qed.

Definition AnyRegP_main_theorems :=
  (any_registered_resurrects, any_registered_resurrects_fuel, any_registered_resurrects_stable,
   any_unregistered_name_not_resurrected, any_unregistered_name_lost,
   any_reg_roundtrip, any_reg_roundtrip_resurrected, any_reg_roundtrip_stable,
   resurrected_named, resurrected_array, resurrected_tuple, resurrected_object, resurrected_map,
   resurrected_array_item, resurrected_tuple_item, resurrected_object_field, resurrected_map_value,
   any_ok_reg_of_any_ok).
Print Assumptions AnyRegP_main_theorems.

