(* Proofs/HashP.v — in the order of the file:
   C09: the streaming hash sink computes the Merkle function, for every hash function H (sink_follows,
     value_then, sink_events_last_strong, hash_two_values, sink_hash_is_merkle; the two error cases
     hash_empty, hash_unclosed);
   C10: replacing sub-values by references keeps the hash (subst_hash, subst_wf, subst_then_hash);
     Deref copies a stream without references and stops at a resolver that fails (deref_no_refs,
     deref_error), copies a stream whose references are all declined (deref_declined_partial) and
     restores the stream (deref_restores_partial); before each of the last two, a _refuted theorem
     shows that its well-formedness hypothesis is needed;
   C09: the Merkle function is injective for an ideal H (mhash_injective);
   instances with a toy hash; an ideal hash exists (ex_ideal_hash). *)
From Coq Require Import List NArith ZArith Bool Lia ZifyBool ZifyNat ZifyN.
From SbModel Require Import Base.Bytes Base.Tokens Base.Values Model.Codec Model.Hash Model.Tree Spec.TreeSpec.
From SbModel Require Import Proofs.BytesP Proofs.CodecP.
Import ListNotations.
Local Open Scope N_scope.

(* one goal per kind for a hypothesis that is a disjunction of kind tests *)
Ltac split_kinds :=
  repeat match goal with
  | Hk : (_ || _) = true |- _ => apply orb_true_iff in Hk; destruct Hk as [Hk|Hk]
  | Hk : (_ =? _) = true |- _ => apply N.eqb_eq in Hk; subst
  | Hk : false = true |- _ => discriminate Hk
  end.

Lemma open_kind_facts k : is_open_kind k = true ->
  (k =? KRef) = false /\ is_hash_leaf_kind k = false /\ is_end_kind k = false /\ (k =? KTypeName) = false.
Proof. unfold is_open_kind. intros Hk. split_kinds; vm_compute; auto. Qed.

Lemma end_kind_facts k : is_end_kind k = true ->
  (k =? KRef) = false /\ is_hash_leaf_kind k = true /\ is_open_kind k || (k =? KTypeName) = false.
Proof. unfold is_end_kind. intros Hk. split_kinds; vm_compute; auto. Qed.

Lemma open_end_of k : is_open_kind k = true -> is_end_kind (end_of k) = true.
Proof. unfold is_open_kind. intros Hk. split_kinds; reflexivity. Qed.

(* every kind that prescribes a value type is an opening kind, the type name, a reference
   (which carries bytes) or one of the kinds HashFunc hashes directly *)
Lemma shaped_kind k v : kind_shape k v = true ->
  is_open_kind k || (k =? KTypeName)
  || (if k =? KRef then match v with VBytes _ => true | _ => false end else is_hash_leaf_kind k) = true.
Proof.
  destruct v as [|b|w z|w n|n|b|b|s|s]; try destruct w; cbn [kind_shape existsb]; intros Hs;
    split_kinds; reflexivity.
Qed.

Lemma leaf_token_inv t : is_leaf_token t = true ->
  is_open_kind (kind t) || (kind t =? KTypeName) = false /\ is_end_kind (kind t) = false.
Proof.
  unfold is_leaf_token.
  destruct (is_open_kind (kind t)), (is_end_kind (kind t)), (kind t =? KTypeName); try discriminate.
  split; reflexivity.
Qed.

Lemma wf_leaf_kind t : is_leaf_token t = true -> wf_token t = true ->
  ((kind t =? KRef) = true /\ exists h, val t = VBytes h) \/
  ((kind t =? KRef) = false /\ is_hash_leaf_kind (kind t) = true).
Proof.
  intros Hl Hw. apply leaf_token_inv in Hl. destruct Hl as [Ho _].
  apply wf_token_shape, shaped_kind in Hw. rewrite Ho in Hw.
  destruct (kind t =? KRef); [left | right; auto].
  split; [reflexivity|]. destruct (val t); try discriminate Hw. eauto.
Qed.

Lemma wf_leaf_inv t : wf_value (Leaf t) = true -> is_leaf_token t = true /\ wf_token t = true.
Proof. cbn [wf_value]. apply andb_true_iff. Qed.

Lemma wf_comp_inv ko kc items : wf_value (Comp ko kc items) = true ->
  is_open_kind ko = true /\ is_end_kind kc = true /\ Forall (fun v => wf_value v = true) items.
Proof.
  cbn [wf_value]. rewrite !andb_true_iff, N.eqb_eq. intros [[Ho ->] Hi].
  repeat split; [assumption | apply open_end_of; assumption |].
  apply Forall_forall. apply forallb_forall. exact Hi.
Qed.

Lemma wf_named_inv n v : wf_value (Named n v) = true -> wf_value v = true.
Proof. cbn [wf_value]. rewrite andb_true_iff. tauto. Qed.

Lemma app_inv_len_head {A} (a b c d : list A) : length a = length b ->
  a ++ c = b ++ d -> a = b /\ c = d.
Proof.
  revert b. induction a as [|x a IH]; intros [|y b] Hl He; cbn [length app] in *; try discriminate Hl.
  - split; [reflexivity | exact He].
  - injection He as Hx He. injection Hl as Hl. destruct (IH b Hl He) as [Ha Hc].
    subst. split; reflexivity.
Qed.

Lemma app_inv_len_tail {A} (a b c d : list A) : length c = length d ->
  a ++ c = b ++ d -> a = b /\ c = d.
Proof.
  intros Hl He. apply app_inv_len_head; [|exact He].
  apply (f_equal (@length A)) in He. rewrite !app_length in He. lia.
Qed.

(* the hashed payload can be read back, with the decoder's own table of fixed-width kinds,
   once the kind is known *)
Definition unpayload (k : N) (b : bytes) : tval :=
  match fixed_kind k with
  | Some (_, mk) => mk (le_val b)
  | None => if is_str_kind k then VStr b else if is_bytes_kind k then VBytes b else VNone
  end.

Lemma unpayload_fixed k n mk b : fixed_kind k = Some (n, mk) -> unpayload k b = mk (le_val b).
Proof. unfold unpayload. intros ->. reflexivity. Qed.

Lemma unpayload_payload k v : kind_shape k v = true -> wf_val v = true ->
  unpayload k (hash_payload v) = v.
Proof.
  intros Hs Hw. destruct v as [|b|w z|w n|n|b|b|s|s]; cbn [wf_val hash_payload] in *.
  - cbn [kind_shape existsb] in Hs. split_kinds; reflexivity.
  - cbn [kind_shape] in Hs. split_kinds. destruct b; reflexivity.
  - destruct w; cbn [kind_shape] in Hs; split_kinds; erewrite unpayload_fixed by reflexivity;
      cbv beta; f_equal; exact (int_roundtrip _ z Hw).
  - destruct w; cbn [kind_shape] in Hs; split_kinds; erewrite unpayload_fixed by reflexivity;
      cbv beta; f_equal; apply uint_roundtrip, N.ltb_lt, Hw.
  - cbn [kind_shape] in Hs. split_kinds. erewrite unpayload_fixed by reflexivity.
    cbv beta. f_equal. apply (uint_roundtrip 8), N.ltb_lt, Hw.
  - cbn [kind_shape] in Hs. split_kinds. erewrite unpayload_fixed by reflexivity.
    cbv beta. f_equal. apply (uint_roundtrip 4), N.ltb_lt, Hw.
  - cbn [kind_shape] in Hs. split_kinds. erewrite unpayload_fixed by reflexivity.
    cbv beta. f_equal. apply (uint_roundtrip 8), N.ltb_lt, Hw.
  - cbn [kind_shape] in Hs. split_kinds; reflexivity.
  - cbn [kind_shape] in Hs. split_kinds; reflexivity.
Qed.

Lemma leaf_preimage_inj t1 t2 : wf_token t1 = true -> wf_token t2 = true ->
  kind t1 :: hash_payload (val t1) = kind t2 :: hash_payload (val t2) -> t1 = t2.
Proof.
  intros W1 W2. pose proof (wf_token_shape t1 W1) as Hs1. pose proof (wf_token_shape t2 W2) as Hs2.
  apply wf_token_val in W1, W2. destruct t1 as [k v1], t2 as [k2 v2]. cbn [kind val] in *.
  intros He. injection He as <- Hp. f_equal.
  rewrite <- (unpayload_payload k v1 Hs1 W1), Hp. apply unpayload_payload; assumption.
Qed.

Section WithH.
Variable H : bytes -> bytes.

Fixpoint hrunO (s : hstate) (i : nat) (ts : list (option token)) : hstate :=
  match ts with
  | [] => s
  | t :: r => hrunO (fst (hstep H s i t)) (S i) r
  end.

Lemma hrunO_err e i ts : hrunO (HErr e) i ts = HErr e.
Proof. revert i. induction ts as [|t r IH]; intros i; cbn [hrunO hstep fst]; [reflexivity | apply IH]. Qed.

(* None = the end-of-stream signal; the events are the calls of the callback *)
Fixpoint hrunE (s : hstate) (i : nat) (ts : list (option token)) : hstate * list event :=
  match ts with
  | [] => (s, [])
  | t :: r => let '(s1, e1) := hstep H s i t in
              let '(s2, e2) := hrunE s1 (S i) r in (s2, e1 ++ e2)
  end.

Definition prepend (evs : list event) (p : hstate * list event) : hstate * list event :=
  (fst p, evs ++ snd p).

Lemma prepend_nil p : prepend [] p = p.
Proof. destruct p as [s e]. reflexivity. Qed.

Lemma prepend_app a b p : prepend a (prepend b p) = prepend (a ++ b) p.
Proof. unfold prepend. cbn [fst snd]. rewrite app_assoc. reflexivity. Qed.

Lemma hrunE_cons s i t r :
  hrunE s i (t :: r) = prepend (snd (hstep H s i t)) (hrunE (fst (hstep H s i t)) (S i) r).
Proof.
  cbn [hrunE]. destruct (hstep H s i t) as [s1 e1]. cbn [fst snd].
  destruct (hrunE s1 (S i) r) as [s2 e2]. reflexivity.
Qed.

Lemma hrunE_prepend s s0 p i o r : hstep H s i o = prepend p (hstep H s0 i o) ->
  hrunE s i (o :: r) = prepend p (hrunE s0 i (o :: r)).
Proof. intros He. rewrite !hrunE_cons, He, prepend_app. reflexivity. Qed.

Lemma hrun_hrunE s i ts : hrun H s i ts = hrunE s i (map Some ts).
Proof.
  revert s i. induction ts as [|t r IH]; intros s i; cbn [hrun map hrunE].
  - reflexivity.
  - destruct (hstep H s i (Some t)) as [s1 e1]. rewrite IH. reflexivity.
Qed.

Lemma hrunE_app s i a b :
  hrunE s i (a ++ b) = prepend (snd (hrunE s i a)) (hrunE (fst (hrunE s i a)) (i + length a) b).
Proof.
  revert s i. induction a as [|t a IH]; intros s i.
  - cbn [app hrunE length fst snd]. rewrite Nat.add_0_r, prepend_nil. reflexivity.
  - cbn [app length]. rewrite !hrunE_cons, IH, prepend_app, Nat.add_succ_comm. reflexivity.
Qed.

Lemma hrunE_done sum i ts : hrunE (HDone sum) i ts = (HDone sum, []).
Proof.
  revert i. induction ts as [|t r IH]; intros i; [reflexivity|].
  rewrite hrunE_cons. cbn [hstep fst snd]. rewrite IH. reflexivity.
Qed.

(* sb.Copy offers the end-of-stream signal only to a live sink; a finished one ignores it *)
Lemma hash_stream_hrunE ts :
  hash_stream H ts = hrunE (HAwait []) 0 (map Some ts ++ [None]).
Proof.
  unfold hash_stream. rewrite hrunE_app, <- hrun_hrunE, map_length. cbn [Nat.add].
  destruct (hrun H (HAwait []) 0 ts) as [s ev]. cbn [fst snd]. rewrite hrunE_cons. cbn [hrunE].
  destruct s as [ks|st idx ks|sub ks|sum|e];
    try (destruct (hstep H _ (length ts) None) as [s' ev']; unfold prepend; cbn [fst snd];
         rewrite app_nil_r; reflexivity);
    unfold prepend; cbn [hstep fst snd app]; rewrite app_nil_r; reflexivity.
Qed.

Definition herr (s : hstate) : bool := match s with HErr _ => true | _ => false end.

Lemma herr_deliver sub ks : herr (deliver sub ks) = false.
Proof. destruct ks; reflexivity. Qed.

Lemma step_deliver sub ks i o : hstep H (deliver sub ks) i o = unwind H (S (length ks)) sub ks i o.
Proof. destruct ks; reflexivity. Qed.

(* a pending hash closes the finished compound, or type name, below it and is handed on *)
Lemma pend_close sub f st idx ks i o : f = FClose st idx \/ f = FName st idx ->
  hstep H (HPend sub (f :: ks)) i o
  = prepend [(Some (H (st ++ sub)), idx)] (hstep H (deliver (H (st ++ sub)) ks) i o).
Proof.
  (* with the fuel abstracted, only the outer call of unwind unfolds *)
  intros [-> | ->]; rewrite step_deliver; cbn [hstep length]; generalize (S (length ks)) as n; intros n;
    cbn [unwind]; destruct (unwind H n (H (st ++ sub)) ks i o) as [s ev]; reflexivity.
Qed.

(* a finished item inside a compound: the pending hash is absorbed by the next step *)
Lemma pend_item sub st idx ks i o :
  hstep H (HPend sub (FItem st idx :: ks)) i o = hstep H (HIn (st ++ sub) idx ks) i o.
Proof. cbn [hstep length unwind]. destruct o as [t|]; reflexivity. Qed.

Lemma hf_leaf ks i t : is_leaf_token t = true -> wf_token t = true ->
  exists evs, hf H ks i t = (deliver (leaf_hash H t) ks, evs ++ [(Some (leaf_hash H t), i)]).
Proof.
  intros Hl Hw. destruct (wf_leaf_kind t Hl Hw) as [[Hr [h Hv]]|[Hr Hk]];
    unfold hf, leaf_hash; rewrite Hr.
  - rewrite Hv. exists []. reflexivity.
  - rewrite Hk. exists [(None, i)]. reflexivity.
Qed.

Lemma hf_open ks i ko : is_open_kind ko = true ->
  hf H ks i (T ko VNone) = (HIn [ko] i ks, [(None, i)]).
Proof.
  intros Ho. destruct (open_kind_facts ko Ho) as (Hr & Hk & _ & _).
  unfold hf. cbn [kind val]. rewrite Hr, Hk, Ho. reflexivity.
Qed.

Lemma hf_name ks i n :
  hf H ks i (T KTypeName (VStr n)) = (HAwait (FName (KTypeName :: n) i :: ks), [(None, i)]).
Proof. reflexivity. Qed.

Lemma hf_end ks i kc : is_end_kind kc = true ->
  hf H ks i (T kc VNone) = (deliver (H [kc]) ks, [(None, i); (Some (H [kc]), i)]).
Proof.
  intros He. destruct (end_kind_facts kc He) as (Hr & Hk & _).
  unfold hf. cbn [kind val]. rewrite Hr, Hk. reflexivity.
Qed.

(* Finalisation is lazy: after the last token of a compound or named value its hash has not
   been computed yet; the closings happen, each with its callback, when the next token or
   the end-of-stream signal arrives.  [hafter v i ks] is the state right after the last
   token of [v], whose first token had index [i], when the hash of [v] is owed to [ks]. *)
Fixpoint hafter (v : value) (i : nat) (ks : list frame) : hstate :=
  match v with
  | Leaf t => deliver (leaf_hash H t) ks
  | Comp ko kc items => HPend (H [kc]) (FClose (ko :: flat_map (mhash H) items) i :: ks)
  | Named n v' => hafter v' (S i) (FName (KTypeName :: n) i :: ks)
  end.

Lemma hafter_step v : forall i ks j o, exists p,
  hstep H (hafter v i ks) j o = prepend p (hstep H (deliver (mhash H v) ks) j o) /\
  ((exists t, v = Leaf t /\ p = []) \/ exists p', p = p' ++ [(Some (mhash H v), i)]).
Proof.
  induction v as [t|ko kc items|n v IH]; intros i ks j o; cbn [hafter mhash].
  - exists []. rewrite prepend_nil. eauto.
  - exists [(Some (H (ko :: flat_map (mhash H) items ++ H [kc])), i)].
    split; [|right; exists []; reflexivity].
    apply (pend_close _ _ (ko :: flat_map (mhash H) items) i). left. reflexivity.
  - destruct (IH (S i) (FName (KTypeName :: n) i :: ks) j o) as (p & Hp & _).
    exists (p ++ [(Some (H (KTypeName :: n ++ mhash H v)), i)]).
    split; [|right; eauto]. rewrite Hp. cbn [deliver].
    rewrite (pend_close _ _ (KTypeName :: n) i) by (right; reflexivity). apply prepend_app.
Qed.

Lemma hafter_pending v : forall i ks,
  (exists t, v = Leaf t) \/ exists sub ks', hafter v i ks = HPend sub ks'.
Proof.
  induction v as [t|ko kc items|n v IH]; intros i ks; cbn [hafter]; [left; eauto | right; eauto |].
  right. destruct (IH (S i) (FName (KTypeName :: n) i :: ks)) as [[t ->] | Hp]; [|exact Hp].
  cbn [hafter deliver]. eauto.
Qed.

Definition steps_as (s s0 : hstate) : Prop :=
  forall i o, exists p, hstep H s i o = prepend p (hstep H s0 i o).

Definition takes (s : hstate) (i : nat) (t : token) (ks : list frame) : Prop :=
  exists p, hstep H s i (Some t) = prepend p (hf H ks i t).

(* [s] is waiting for a value whose hash goes to [ks] *)
Definition awaits (s : hstate) (ks : list frame) : Prop :=
  forall i t, is_end_kind (kind t) = false -> takes s i t ks.

Lemma steps_as_refl s : steps_as s s.
Proof. intros i o. exists []. rewrite prepend_nil. reflexivity. Qed.

Lemma awaits_await ks : awaits (HAwait ks) ks.
Proof. intros i t _. exists []. rewrite prepend_nil. reflexivity. Qed.

Lemma awaits_item s st idx ks : steps_as s (HIn st idx ks) -> awaits s (FItem st idx :: ks).
Proof. intros Hs i t He. destruct (Hs i (Some t)) as [p Hp]. exists p. rewrite Hp. cbn [hstep]. unfold hc. rewrite He. reflexivity. Qed.

Lemma takes_end s st idx ks i t : steps_as s (HIn st idx ks) -> is_end_kind (kind t) = true ->
  takes s i t (FClose st idx :: ks).
Proof. intros Hs He. destruct (Hs i (Some t)) as [p Hp]. exists p. rewrite Hp. cbn [hstep]. unfold hc. rewrite He. reflexivity. Qed.

Lemma hafter_item x j st idx ks :
  steps_as (hafter x j (FItem st idx :: ks)) (HIn (st ++ mhash H x) idx ks).
Proof.
  intros i o. destruct (hafter_step x j (FItem st idx :: ks) i o) as (p & Hp & _).
  exists p. rewrite Hp. cbn [deliver]. rewrite pend_item. reflexivity.
Qed.

Inductive follows : hstate -> nat -> list token -> hstate -> Prop :=
| follows_nil s i : follows s i [] s
| follows_cons s i t r ks s1 ev s' :
    takes s i t ks -> hf H ks i t = (s1, ev) -> herr s1 = false ->
    follows s1 (S i) r s' -> follows s i (t :: r) s'.

Lemma follows_app s i a s1 b s2 :
  follows s i a s1 -> follows s1 (i + length a) b s2 -> follows s i (a ++ b) s2.
Proof.
  induction 1 as [s i|s i t r ks s1 ev s' Ht Hf He _ IH]; cbn [app length].
  - rewrite Nat.add_0_r. auto.
  - intros Hb. apply (follows_cons s i t _ ks s1 ev s2 Ht Hf He). apply IH.
    rewrite Nat.add_succ_comm. exact Hb.
Qed.

Lemma follows_hrunE s i ts s' : follows s i ts s' -> exists ev, hrunE s i (map Some ts) = (s', ev).
Proof.
  induction 1 as [s i|s i t r ks s1 ev s' [p Hp] Hf _ _ [ev' IH]]; [exists []; reflexivity|].
  cbn [map]. rewrite hrunE_cons, Hp, Hf. unfold prepend. cbn [fst snd]. rewrite IH.
  eexists. reflexivity.
Qed.

Definition hashes (v : value) : Prop :=
  forall s ks i, awaits s ks -> follows s i (flatten v) (hafter v i ks).

Lemma follows_items items : Forall hashes items ->
  forall s st idx ks j, steps_as s (HIn st idx ks) ->
  exists s', follows s j (flat_map flatten items) s' /\
             steps_as s' (HIn (st ++ flat_map (mhash H) items) idx ks).
Proof.
  induction 1 as [|x r Hx _ IH]; intros s st idx ks j Hs; cbn [flat_map].
  - exists s. rewrite app_nil_r. split; [constructor | exact Hs].
  - destruct (IH _ _ idx ks (j + length (flatten x))%nat (hafter_item x j st idx ks)) as (s' & Hf & Hs').
    exists s'. rewrite app_assoc. split; [|exact Hs'].
    apply (follows_app _ _ _ _ _ _ (Hx s _ j (awaits_item s st idx ks Hs)) Hf).
Qed.

Theorem sink_follows v : wf_value v = true -> hashes v.
Proof.
  induction v as [t|ko kc items IH|n v IH] using value_ind2; intros Hw s ks i Ha; cbn [flatten hafter].
  - apply wf_leaf_inv in Hw. destruct Hw as [Hl Hw].
    destruct (hf_leaf ks i t Hl Hw) as [evs Hf].
    apply (follows_cons s i t [] ks _ _ _ (Ha i t (proj2 (leaf_token_inv t Hl))) Hf (herr_deliver _ _)).
    constructor.
  - destruct (wf_comp_inv _ _ _ Hw) as (Ho & Hc & Hi).
    destruct (open_kind_facts ko Ho) as (_ & _ & He & _).
    apply (follows_cons s i _ _ ks _ _ _ (Ha i (T ko VNone) He) (hf_open ks i ko Ho) eq_refl).
    destruct (follows_items items (Forall_mp _ _ _ IH Hi) _ [ko] i ks (S i) (steps_as_refl _))
      as (s' & Hf & Hs').
    apply (follows_app _ _ _ _ _ _ Hf).
    apply (follows_cons _ _ _ [] _ _ _ _ (takes_end _ _ _ _ _ (T kc VNone) Hs' Hc) (hf_end _ _ kc Hc) eq_refl).
    constructor.
  - apply wf_named_inv in Hw.
    apply (follows_cons s i _ _ ks _ _ _ (Ha i (T KTypeName (VStr n)) eq_refl) (hf_name ks i n) eq_refl).
    apply (IH Hw). apply awaits_await.
Qed.

(* fut <> []: the hash of [v] is reported by the step that follows its last token (see hafter) *)
Theorem value_then v s ks i fut : wf_value v = true -> awaits s ks -> fut <> [] ->
  exists evs,
    hrunE s i (map Some (flatten v) ++ fut)
    = prepend (evs ++ [(Some (mhash H v), i)])
          (hrunE (deliver (mhash H v) ks) (i + length (flatten v)) fut).
Proof.
  intros Hw Ha Hfut. destruct fut as [|o fut]; [congruence|].
  destruct (follows_hrunE _ _ _ _ (sink_follows v Hw s ks i Ha)) as [ev Hev].
  destruct (hafter_step v i ks (i + length (flatten v)) o) as (p & Hp & Hlast).
  rewrite hrunE_app, Hev, map_length. cbn [fst snd]. rewrite (hrunE_prepend _ _ _ _ _ _ Hp), prepend_app.
  enough (exists evs, ev ++ p = evs ++ [(Some (mhash H v), i)]) as [evs ->]; [exists evs; reflexivity|].
  destruct Hlast as [(t & -> & ->) | (p' & ->)]; [|exists (ev ++ p'); apply app_assoc].
  apply wf_leaf_inv in Hw. destruct Hw as [Hl Hw].
  destruct (Ha i t (proj2 (leaf_token_inv t Hl))) as [p0 Hp0].
  destruct (hf_leaf ks i t Hl Hw) as [evs Hf].
  cbn [flatten map] in Hev. rewrite hrunE_cons, Hp0, Hf in Hev. unfold prepend in Hev.
  cbn [fst snd hrunE] in Hev. injection Hev as <-.
  exists (p0 ++ evs). cbn [mhash]. rewrite !app_nil_r, app_assoc. reflexivity.
Qed.

(* every event of the run, and the final state: the last callback reports the root hash
   (for the first token), which is what TreeFromStream(WithHash) attaches to the root *)
Theorem sink_events_last_strong v more : wf_value v = true ->
  exists evs, hash_stream H (flatten v ++ more) = (HDone (mhash H v), evs ++ [(Some (mhash H v), 0%nat)]).
Proof.
  intros Hw. rewrite hash_stream_hrunE, map_app, <- app_assoc.
  destruct (value_then v _ [] 0%nat (map Some more ++ [None]) Hw (awaits_await [])) as [evs Hev];
    [destruct (map Some more); discriminate|].
  rewrite Hev. cbn [deliver]. rewrite hrunE_done. exists evs.
  unfold prepend. cbn [fst snd]. rewrite app_nil_r. reflexivity.
Qed.

(* sink_events_last_strong at more = [] with the index left open; no other file uses it *)
Theorem sink_events_last v : wf_value v = true -> mhash H v <> [] ->
  exists evs idx, snd (hash_stream H (flatten v)) = evs ++ [(Some (mhash H v), idx)].
Proof.
  intros Hw _ (* mhash H v <> []: not needed *). destruct (sink_events_last_strong v [] Hw) as [evs Hev].
  rewrite app_nil_r in Hev. rewrite Hev. exists evs, 0%nat. reflexivity.
Qed.

Theorem hash_two_values v more : wf_value v = true ->
  hash_result H (flatten v ++ more) = inl (mhash H v).
Proof.
  intros Hw. unfold hash_result. destruct (sink_events_last_strong v more Hw) as [evs ->]. reflexivity.
Qed.

(* hash_two_values at more = flatten w ++ rest; no other file uses it *)
Corollary hash_two_values_stream v w rest : wf_value v = true ->
  hash_result H (flatten v ++ flatten w ++ rest) = inl (mhash H v).
Proof. apply hash_two_values. Qed.

Theorem sink_hash_is_merkle v : wf_value v = true ->
  hash_result H (flatten v) = inl (mhash H v).
Proof.
  intros Hw. rewrite <- (app_nil_r (flatten v)). apply hash_two_values. exact Hw.
Qed.

Theorem hash_empty : hash_result H [] = inr EEnd.
Proof. reflexivity. Qed.

(* a compound cut before its end marker: io.ErrUnexpectedEOF *)
Theorem hash_unclosed ko kc items : wf_value (Comp ko kc items) = true ->
  hash_result H (removelast (flatten (Comp ko kc items))) = inr EEnd.
Proof.
  intros Hw. destruct (wf_comp_inv _ _ _ Hw) as (Ho & _ & Hi).
  cbn [flatten]. rewrite app_comm_cons, removelast_app by discriminate.
  cbn [removelast]. rewrite app_nil_r.
  destruct (follows_items items (Forall_impl _ sink_follows Hi) _ [ko] 0%nat [] 1%nat (steps_as_refl _))
    as (s' & Hf & Hs').
  destruct (follows_hrunE _ _ _ _ Hf) as [ev Hev]. destruct (Hs' (1 + length (flat_map flatten items))%nat None) as [p Hp].
  unfold hash_result. rewrite hash_stream_hrunE. cbn [map app].
  rewrite hrunE_cons. cbn [hstep]. rewrite (hf_open [] 0%nat ko Ho). cbn [fst snd].
  rewrite hrunE_app, Hev, map_length. cbn [fst snd]. rewrite hrunE_cons, Hp. reflexivity.
Qed.

(* the item loops of subst_at and selected *)
Fixpoint subst_items (sel : list nat) (j : nat) (l : list value) : list value :=
  match l with
  | [] => []
  | x :: r => subst_at H sel j x :: subst_items sel (j + vlen x) r
  end.

Fixpoint sel_items (sel : list nat) (j : nat) (l : list value) : list (nat * value) :=
  match l with
  | [] => []
  | x :: r => selected sel j x ++ sel_items sel (j + vlen x) r
  end.

Lemma subst_at_comp sel i ko kc items :
  subst_at H sel i (Comp ko kc items) =
    if existsb (Nat.eqb i) sel then Leaf (T KRef (VBytes (mhash H (Comp ko kc items))))
    else Comp ko kc (subst_items sel (S i) items).
Proof.
  cbn [subst_at]. destruct (existsb (Nat.eqb i) sel); [reflexivity|]. f_equal.
  generalize (S i) as j. induction items as [|x r IH]; intros j; cbn [subst_items]; [reflexivity|].
  f_equal. apply IH.
Qed.

Lemma selected_comp sel i ko kc items :
  selected sel i (Comp ko kc items) =
    if existsb (Nat.eqb i) sel then [(i, Comp ko kc items)] else sel_items sel (S i) items.
Proof.
  cbn [selected]. destruct (existsb (Nat.eqb i) sel); [reflexivity|].
  generalize (S i) as j. induction items as [|x r IH]; intros j; cbn [sel_items]; [reflexivity|].
  f_equal. apply IH.
Qed.

Theorem subst_hash sel i v : mhash H (subst_at H sel i v) = mhash H v.
Proof.
  revert i. induction v as [t|ko kc items IH|n v IH] using value_ind2; intros i.
  - cbn [subst_at]. destruct (existsb (Nat.eqb i) sel); reflexivity.
  - rewrite subst_at_comp. destruct (existsb (Nat.eqb i) sel); [reflexivity|].
    cbn [mhash]. do 3 f_equal.
    generalize (S i). induction IH as [|x l Hx _ IHl]; intros j; cbn [subst_items flat_map]; [reflexivity|].
    rewrite Hx, IHl. reflexivity.
  - cbn [subst_at]. destruct (existsb (Nat.eqb i) sel); [reflexivity|].
    cbn [mhash]. rewrite IH. reflexivity.
Qed.

Lemma mhash_wf v : (forall x, wf_bytes (H x)) -> wf_value v = true -> wf_bytesb (mhash H v) = true.
Proof.
  intros HH Hw. destruct v as [t|ko kc items|n v]; cbn [mhash]; try (apply wf_bytesb_iff, HH).
  apply wf_leaf_inv in Hw. destruct Hw as [_ Hw].
  unfold leaf_hash. destruct (kind t =? KRef); [|apply wf_bytesb_iff, HH].
  apply wf_token_val in Hw. destruct (val t); try reflexivity. exact Hw.
Qed.

(* a hash returns bytes: needed for the reference tokens to be well-formed *)
Theorem subst_wf sel i v : (forall x, wf_bytes (H x)) -> wf_value v = true ->
  wf_value (subst_at H sel i v) = true.
Proof.
  intros HH. revert i. induction v as [t|ko kc items IH|n v IH] using value_ind2; intros i Hw;
    [cbn [subst_at] | rewrite subst_at_comp | cbn [subst_at]];
    destruct (existsb (Nat.eqb i) sel);
    try (cbn [wf_value]; unfold is_leaf_token, wf_token; cbn [kind val wf_val];
         rewrite (mhash_wf _ HH Hw); reflexivity).
  - exact Hw.
  - cbn [wf_value] in *. apply andb_true_iff in Hw. destruct Hw as [Hw Hwi]. rewrite Hw. cbn [andb].
    revert Hwi. generalize (S i).
    induction IH as [|x l Hx _ IHl]; intros j Hwi; cbn [subst_items forallb] in *; [reflexivity|].
    apply andb_true_iff in Hwi. destruct Hwi as [Hwx Hwl].
    rewrite (Hx j Hwx), (IHl _ Hwl). reflexivity.
  - cbn [wf_value] in *. apply andb_true_iff in Hw. destruct Hw as [Hn Hw].
    rewrite Hn, (IH _ Hw). reflexivity.
Qed.

Corollary subst_then_hash sel i v : wf_value v = true -> (forall x, wf_bytes (H x)) ->
  hash_result H (flatten (subst_at H sel i v)) = inl (mhash H v).
Proof.
  intros Hw HH. rewrite sink_hash_is_merkle by (apply subst_wf; assumption).
  rewrite subst_hash. reflexivity.
Qed.

Lemma deref_cons_noref resolve t r : kind t <> KRef ->
  deref resolve (t :: r) = (t :: fst (deref resolve r), snd (deref resolve r)).
Proof.
  intros Hk. cbn [deref]. apply N.eqb_neq in Hk. rewrite Hk.
  destruct (deref resolve r) as [o e]. reflexivity.
Qed.

Lemma deref_app resolve a : forall a' b, deref resolve a = (a', ENone) ->
  deref resolve (a ++ b) = (a' ++ fst (deref resolve b), snd (deref resolve b)).
Proof.
  induction a as [|t r IH]; intros a' b Ha.
  - cbn [deref] in Ha. inversion Ha; subst. cbn [app]. apply surjective_pairing.
  - cbn [app deref] in *. destruct (kind t =? KRef).
    + destruct (val t) as [|b0|w z|w n|n|b0|b0|s|h]; try discriminate Ha.
      destruct (resolve h) as [sub| |]; [| |discriminate Ha];
        destruct (deref resolve r) as [o e]; inversion Ha; subst; rewrite (IH o b eq_refl).
      * rewrite app_assoc. reflexivity.
      * reflexivity.
    + destruct (deref resolve r) as [o e]. inversion Ha; subst.
      rewrite (IH o b eq_refl). reflexivity.
Qed.

Theorem deref_no_refs resolve ts : (forall t, In t ts -> kind t <> KRef) ->
  deref resolve ts = (ts, ENone).
Proof.
  induction ts as [|t r IH]; intros Hk; [reflexivity|].
  rewrite deref_cons_noref by (apply Hk; left; reflexivity).
  rewrite IH by (intros t' Ht'; apply Hk; right; exact Ht'). reflexivity.
Qed.

Theorem deref_error resolve pre h post : (forall t, In t pre -> kind t <> KRef) -> resolve h = RFail ->
  deref resolve (pre ++ T KRef (VBytes h) :: post) = (pre, EFault).
Proof.
  intros Hk Hr. rewrite (deref_app resolve pre pre) by (apply deref_no_refs; exact Hk).
  cbn [deref kind val]. rewrite N.eqb_refl, Hr. cbn [fst snd]. rewrite app_nil_r. reflexivity.
Qed.

(* the statement without a hypothesis on the tokens is false: a Ref token without bytes panics *)
Theorem deref_declined_refuted :
  exists resolve ts, (forall h, resolve h = RDecline) /\ deref resolve ts <> (ts, ENone).
Proof. exists (fun _ => RDecline), [T KRef VNone]. split; [reflexivity|]. vm_compute. discriminate. Qed.

Theorem deref_declined_partial resolve ts : (forall h, resolve h = RDecline) ->
  (forall t, In t ts -> wf_token t = true) -> deref resolve ts = (ts, ENone).
Proof.
  intros Hd. induction ts as [|t r IH]; intros Hw; [reflexivity|].
  assert (IHr : deref resolve r = (r, ENone)) by (apply IH; intros t' Ht'; apply Hw; right; exact Ht').
  cbn [deref]. destruct (kind t =? KRef) eqn:Ek; [|rewrite IHr; reflexivity].
  pose proof (wf_token_shape t (Hw t (or_introl eq_refl))) as Hs. apply shaped_kind in Hs. rewrite Ek in Hs. apply N.eqb_eq in Ek. rewrite Ek in Hs.
  destruct (val t); try discriminate Hs. rewrite Hd, IHr. reflexivity.
Qed.

(* without well-formedness the statement is false: an opening token of kind Ref panics *)
Theorem deref_restores_refuted :
  exists resolve sel i v, ref_free v = true /\
    (forall j s, In (j, s) (selected sel i v) -> resolve (mhash H s) = RStream (flatten s)) /\
    deref resolve (flatten (subst_at H sel i v)) <> (flatten v, ENone).
Proof.
  exists (fun _ => RDecline), [], 0%nat, (Comp KRef 0 []).
  split; [reflexivity|]. split; [intros j s []|]. vm_compute. discriminate.
Qed.

Theorem deref_restores_partial resolve sel i v : wf_value v = true -> ref_free v = true ->
  (forall j s, In (j, s) (selected sel i v) -> resolve (mhash H s) = RStream (flatten s)) ->
  deref resolve (flatten (subst_at H sel i v)) = (flatten v, ENone).
Proof.
  revert i. induction v as [t|ko kc items IH|n v IH] using value_ind2; intros i Hw Hr;
    [cbn [subst_at selected] | rewrite subst_at_comp, selected_comp | cbn [subst_at selected]];
    destruct (existsb (Nat.eqb i) sel); intros Hsel;
    try (cbn [flatten deref kind val]; rewrite N.eqb_refl, (Hsel i _ (or_introl eq_refl)), app_nil_r;
         reflexivity).
  - apply deref_no_refs. intros t' [<-|[]]. apply N.eqb_neq, negb_true_iff, Hr.
  - destruct (wf_comp_inv _ _ _ Hw) as (Ho & Hc & Hi). cbn [flatten ref_free] in *.
    rewrite deref_cons_noref by (apply N.eqb_neq, (open_kind_facts ko Ho)).
    rewrite (deref_app resolve _ (flat_map flatten items)).
    + rewrite deref_no_refs; [reflexivity|].
      intros t' [<-|[]]. apply N.eqb_neq, (end_kind_facts kc Hc).
    + clear Hw. revert Hi Hr Hsel. generalize (S i).
      induction IH as [|x l Hx _ IHl]; intros j Hi Hr Hsel;
        cbn [subst_items sel_items flat_map forallb] in *; [reflexivity|].
      inversion Hi as [|? ? Hwx Hwl]; subst. apply andb_true_iff in Hr. destruct Hr as [Hrx Hrl].
      rewrite (deref_app resolve _ (flatten x)), IHl; try assumption; try reflexivity.
      * intros j' s Hin. apply (Hsel j'), in_or_app. right. exact Hin.
      * apply Hx; try assumption. intros j' s Hin. apply (Hsel j'), in_or_app. left. exact Hin.
  - apply wf_named_inv in Hw. cbn [flatten ref_free] in *.
    rewrite deref_cons_noref by discriminate.
    rewrite (IH (S i) Hw Hr Hsel). reflexivity.
Qed.

Definition fixed_len (L : nat) := forall x, length (H x) = L.
Definition inj := forall x y, H x = H y -> x = y.

Definition preimage (v : value) : bytes :=
  match v with
  | Leaf t => kind t :: hash_payload (val t)
  | Comp ko kc items => ko :: flat_map (mhash H) items ++ H [kc]
  | Named n v => KTypeName :: n ++ mhash H v
  end.

Lemma mhash_preimage v : ref_free v = true -> mhash H v = H (preimage v).
Proof.
  destruct v as [t|ko kc items|n v]; cbn [ref_free mhash preimage]; intros Hr; try reflexivity.
  unfold leaf_hash. apply negb_true_iff in Hr. rewrite Hr. reflexivity.
Qed.

Lemma mhash_len L v : fixed_len L -> ref_free v = true -> length (mhash H v) = L.
Proof. intros HL Hr. rewrite mhash_preimage by exact Hr. apply HL. Qed.

(* the preimage starts with the kind of the first token, which tells the three forms of a
   well-formed value apart *)
Lemma preimage_form v : wf_value v = true ->
  match preimage v with k :: _ => (is_open_kind k, k =? KTypeName) | [] => (false, false) end
  = match v with Leaf _ => (false, false) | Comp _ _ _ => (true, false) | Named _ _ => (false, true) end.
Proof.
  destruct v as [t|ko kc items|n v]; intros Hw; cbn [preimage].
  - apply wf_leaf_inv in Hw. destruct Hw as [Hl _]. apply leaf_token_inv in Hl. destruct Hl as [Hl _].
    apply orb_false_iff in Hl. destruct Hl as [-> ->]. reflexivity.
  - apply wf_comp_inv in Hw. destruct Hw as (Ho & _). destruct (open_kind_facts ko Ho) as (_ & _ & _ & ->).
    rewrite Ho. reflexivity.
  - reflexivity.
Qed.

Lemma items_split L : fixed_len L -> (0 < L)%nat ->
  forall items1 items2 tl1 tl2, length tl1 = L -> length tl2 = L ->
  forallb ref_free items1 = true -> forallb ref_free items2 = true ->
  flat_map (mhash H) items1 ++ tl1 = flat_map (mhash H) items2 ++ tl2 ->
  Forall2 (fun a b => mhash H a = mhash H b) items1 items2 /\ tl1 = tl2.
Proof.
  intros HL Hpos. induction items1 as [|x1 r1 IH]; intros [|x2 r2] tl1 tl2 Ht1 Ht2 Hr1 Hr2 He;
    cbn [flat_map forallb app] in *.
  - split; [constructor | exact He].
  - apply andb_true_iff in Hr2. destruct Hr2 as [Hx2 _].
    apply (f_equal (@length N)) in He. rewrite !app_length, (mhash_len L x2 HL Hx2) in He. lia.
  - apply andb_true_iff in Hr1. destruct Hr1 as [Hx1 _].
    apply (f_equal (@length N)) in He. rewrite !app_length, (mhash_len L x1 HL Hx1) in He. lia.
  - apply andb_true_iff in Hr1. destruct Hr1 as [Hx1 Hr1].
    apply andb_true_iff in Hr2. destruct Hr2 as [Hx2 Hr2].
    rewrite <- !app_assoc in He.
    apply app_inv_len_head in He;
      [|rewrite (mhash_len L x1 HL Hx1), (mhash_len L x2 HL Hx2); reflexivity].
    destruct He as [Hx He].
    destruct (IH r2 tl1 tl2 Ht1 Ht2 Hr1 Hr2 He) as [Hf Ht].
    split; [constructor; assumption | exact Ht].
Qed.

Theorem mhash_injective L v1 v2 : inj -> fixed_len L -> (0 < L)%nat ->
  wf_value v1 = true -> wf_value v2 = true -> ref_free v1 = true -> ref_free v2 = true ->
  mhash H v1 = mhash H v2 -> flatten v1 = flatten v2.
Proof.
  intros Hinj HL Hpos. revert v2.
  induction v1 as [t1|ko1 kc1 items1 IH|n1 v1 IH] using value_ind2;
    intros v2 Hw1 Hw2 Hr1 Hr2 Hm;
    rewrite (mhash_preimage _ Hr1), (mhash_preimage _ Hr2) in Hm; apply Hinj in Hm;
    pose proof (preimage_form _ Hw1) as C1; pose proof (preimage_form _ Hw2) as C2;
    rewrite Hm in C1; rewrite C1 in C2;
    destruct v2 as [t2|ko2 kc2 items2|n2 v2]; try discriminate C2;
    clear C1 C2; cbn [preimage ref_free flatten] in *.
  - apply wf_leaf_inv in Hw1. apply wf_leaf_inv in Hw2.
    rewrite (leaf_preimage_inj t1 t2 (proj2 Hw1) (proj2 Hw2) Hm). reflexivity.
  - injection Hm as <- He.
    destruct (items_split L HL Hpos items1 items2 (H [kc1]) (H [kc2]) (HL _) (HL _) Hr1 Hr2 He) as [Hf Hc].
    apply Hinj in Hc. injection Hc as <-. do 2 f_equal.
    apply wf_comp_inv in Hw1. destruct Hw1 as (_ & _ & Hw1).
    apply wf_comp_inv in Hw2. destruct Hw2 as (_ & _ & Hw2).
    clear He. revert IH Hw1 Hw2 Hr1 Hr2.
    induction Hf as [|x1 x2 r1 r2 Hx _ IHf]; intros IH Hw1 Hw2 Hr1 Hr2; [reflexivity|].
    cbn [flat_map forallb] in *.
    apply andb_true_iff in Hr1. destruct Hr1 as [Hrx1 Hr1].
    apply andb_true_iff in Hr2. destruct Hr2 as [Hrx2 Hr2].
    inversion IH as [|? ? IHx IHr]; inversion Hw1 as [|? ? Hwx1 Hwr1]; inversion Hw2 as [|? ? Hwx2 Hwr2]; subst.
    rewrite (IHx x2 Hwx1 Hwx2 Hrx1 Hrx2 Hx), (IHf IHr Hwr1 Hwr2 Hr1 Hr2). reflexivity.
  - injection Hm as He.
    apply app_inv_len_tail in He;
      [|rewrite (mhash_len L v1 HL Hr1), (mhash_len L v2 HL Hr2); reflexivity].
    destruct He as [<- He]. apply wf_named_inv in Hw1. apply wf_named_inv in Hw2.
    rewrite (IH v2 Hw1 Hw2 Hr1 Hr2 He). reflexivity.
Qed.

End WithH.

Definition toyH (bs : bytes) : bytes :=
  [N.of_nat (length bs) mod 256; fold_right N.add 0 bs mod 256].

Lemma toyH_wf x : wf_bytes (toyH x).
Proof. unfold toyH. constructor; [apply mod256_lt|]. constructor; [apply mod256_lt|constructor]. Qed.

(* indices: 0 name, 1 array, 2 int, 3 string, 4 map, 5 map end, 6 name, 7 bool, 8 array end *)
Definition ex_value : value :=
  Named [1; 2]
    (Comp KArray KArrayEnd
       [Leaf (T KInt (VI WNat 5)); Leaf (T KString (VStr [104; 105]));
        Comp KMap KMapEnd []; Named [7] (Leaf (T KBool (VBool true)))]).

Example ex_sink_hash_is_merkle :
  wf_value ex_value = true /\
  hash_result toyH (flatten ex_value) = inl (mhash toyH ex_value) /\
  mhash toyH ex_value <> [] /\
  snd (hash_stream toyH (flatten ex_value))
    = removelast (snd (hash_stream toyH (flatten ex_value))) ++ [(Some (mhash toyH ex_value), 0%nat)].
Proof.
  split; [reflexivity|]. split; [exact (sink_hash_is_merkle toyH ex_value eq_refl)|].
  split; [vm_compute; discriminate|].
  destruct (sink_events_last_strong toyH ex_value [] eq_refl) as [evs Hev].
  rewrite app_nil_r in Hev. rewrite Hev. cbn [snd]. rewrite removelast_last. reflexivity.
Qed.

Example ex_hash_two_values :
  hash_result toyH (flatten ex_value ++ flatten ex_value ++ [T KArrayEnd VNone]) = inl (mhash toyH ex_value).
Proof. exact (hash_two_values toyH ex_value _ eq_refl). Qed.

Example ex_hash_unclosed :
  wf_value (Comp KArray KArrayEnd [ex_value]) = true /\
  hash_result toyH (removelast (flatten (Comp KArray KArrayEnd [ex_value]))) = inr EEnd.
Proof. split; [reflexivity | exact (hash_unclosed toyH KArray KArrayEnd [ex_value] eq_refl)]. Qed.

Definition ex_resolve (sel : list nat) (h : bytes) : resolution :=
  match find (fun p => bytes_eqb (mhash toyH (snd p)) h) (selected sel 0 ex_value) with
  | Some (_, s) => RStream (flatten s)
  | None => RDecline
  end.

Example ex_subst :
  ref_free ex_value = true /\
  map fst (selected [3; 4]%nat 0 ex_value) = [3; 4]%nat /\
  wf_value (subst_at toyH [3; 4]%nat 0 ex_value) = true /\
  mhash toyH (subst_at toyH [3; 4]%nat 0 ex_value) = mhash toyH ex_value /\
  length (flatten (subst_at toyH [3; 4]%nat 0 ex_value)) = 8%nat /\
  (forall j s, In (j, s) (selected [3; 4]%nat 0 ex_value) ->
     ex_resolve [3; 4]%nat (mhash toyH s) = RStream (flatten s)) /\
  deref (ex_resolve [3; 4]%nat) (flatten (subst_at toyH [3; 4]%nat 0 ex_value)) = (flatten ex_value, ENone).
Proof.
  assert (Hsel : forall j s, In (j, s) (selected [3; 4]%nat 0 ex_value) ->
                   ex_resolve [3; 4]%nat (mhash toyH s) = RStream (flatten s)).
  { intros j s Hin. vm_compute in Hin.
    destruct Hin as [E|[E|[]]]; inversion E; subst; vm_compute; reflexivity. }
  split; [reflexivity|]. split; [reflexivity|].
  split; [exact (subst_wf toyH [3; 4]%nat 0 ex_value toyH_wf eq_refl)|]. split; [apply subst_hash|].
  split; [reflexivity|]. split; [exact Hsel|].
  exact (deref_restores_partial toyH _ [3; 4]%nat 0 ex_value eq_refl eq_refl Hsel).
Qed.

Example ex_deref_error :
  deref (fun _ => RFail) ([T KArray VNone] ++ T KRef (VBytes [1; 2]) :: [T KArrayEnd VNone])
  = ([T KArray VNone], EFault).
Proof. apply deref_error; [intros t [<-|[]]; discriminate | reflexivity]. Qed.

(* an ideal hash exists: an injective function with outputs of one fixed length
   (a self-delimiting binary code of the byte list, as a single number) *)
Fixpoint encpos (q tail : positive) : positive :=
  match q with
  | xH => xO (xI tail)
  | xO q' => xI (xO (encpos q' tail))
  | xI q' => xI (xI (encpos q' tail))
  end.
Definition encN (a : N) (tail : positive) : positive :=
  match a with N0 => xO (xO tail) | Npos q => encpos q tail end.
Fixpoint enc (l : bytes) : positive :=
  match l with [] => xH | a :: r => encN a (enc r) end.
Definition idealH (x : bytes) : bytes := [Npos (enc x)].

Lemma encpos_inj q : forall q' t t', encpos q t = encpos q' t' -> q = q' /\ t = t'.
Proof.
  induction q as [q IH|q IH|]; intros [q'|q'|] t t' He; cbn [encpos] in He; try discriminate He.
  - injection He as He. destruct (IH q' t t' He) as [-> ->]. split; reflexivity.
  - injection He as He. destruct (IH q' t t' He) as [-> ->]. split; reflexivity.
  - injection He as He. subst. split; reflexivity.
Qed.

Lemma encN_inj a a' t t' : encN a t = encN a' t' -> a = a' /\ t = t'.
Proof.
  destruct a as [|q], a' as [|q']; cbn [encN]; intros He.
  - injection He as He. subst. split; reflexivity.
  - destruct q'; discriminate He.
  - destruct q; discriminate He.
  - destruct (encpos_inj q q' t t' He) as [-> ->]. split; reflexivity.
Qed.

Lemma enc_inj l : forall l', enc l = enc l' -> l = l'.
Proof.
  induction l as [|a r IH]; intros [|a' r'] He; cbn [enc] in He.
  - reflexivity.
  - destruct a' as [|[q|q|]]; discriminate He.
  - destruct a as [|[q|q|]]; discriminate He.
  - destruct (encN_inj a a' _ _ He) as [-> Hr]. rewrite (IH r' Hr). reflexivity.
Qed.

Example ex_ideal_hash : inj idealH /\ fixed_len idealH 1 /\ (0 < 1)%nat.
Proof.
  split; [|split; [intros x; reflexivity | lia]].
  intros x y He. unfold idealH in He. injection He as He. apply enc_inj. exact He.
Qed.

Example ex_mhash_injective v :
  wf_value v = true -> ref_free v = true -> mhash idealH v = mhash idealH ex_value ->
  flatten v = flatten ex_value.
Proof.
  intros Hw Hr Hm. destruct ex_ideal_hash as (Hi & Hl & Hp).
  apply (mhash_injective idealH 1 v ex_value Hi Hl Hp Hw); [reflexivity | exact Hr | reflexivity | exact Hm].
Qed.

Print Assumptions sink_hash_is_merkle.
Print Assumptions sink_events_last.
Print Assumptions sink_events_last_strong.
Print Assumptions hash_two_values.
Print Assumptions hash_two_values_stream.
Print Assumptions hash_empty.
Print Assumptions hash_unclosed.
Print Assumptions mhash_injective.
Print Assumptions subst_hash.
Print Assumptions subst_wf.
Print Assumptions subst_then_hash.
Print Assumptions deref_restores_partial.
Print Assumptions deref_restores_refuted.
Print Assumptions deref_declined_partial.
Print Assumptions deref_declined_refuted.
Print Assumptions deref_no_refs.
Print Assumptions deref_error.
Print Assumptions ex_ideal_hash.
Print Assumptions ex_mhash_injective.
