(* Proofs/UnmarshalP.v — the unmarshaller model (Model/Unmarshal.v).
   1. The body of [unm] under names: the loops [arr_loop] .. [tuple_loop], one case per token kind
      [nan_case] .. [scalar_case], [dispatch], [ustep]; [unm_S], [unm_O].  After that [unm] is opaque.
   2. Fuel and the stream (C05): 2.1 [unm_fuel_mono]; 2.2 [unm_suffix], [unm_consumes]; 2.3 the measure [mu],
      [unm_total_bound], [unm_fuel_agree], [unm_only].
   3. One step, as equations: 3.1 kinds of tokens and of targets ([plain_kind_neq], [head_ok], [dispatched]);
      3.2 over any recursive call: [utail_*], [dispatch_*], a round of each loop ([*_loop_step]) and of
      [struct_loop] on a field name; 3.3 at [unm]: [unm_head], [unm_skip], [unm_ptr], [unm_dispatch],
      [unm_plain], [unm_*_tok]; 3.4 C05 on Nil, end markers, the empty stream, scalars ([scalar_by_set_scalar]);
      3.5 on the tokens [marshal] writes: [unm_bool] .. [unm_time], [unm_name], [unm_*_step], [unm_any_tn].
   4. The schema-less target receives an interface value: [unm_any].
   5. C01, round trip on the first universe ([simple_ty]): [strip], [leadl], [vsize]; the list loops read back
      what their elements read back ([slice_loop_reads], [arr_loop_reads], also used by Proofs/RoundTripFullP.v);
      [struct_loop_rt]; [roundtrip_w] for any writer options, [roundtrip_simple_fuel].
   6. C16, a struct is decoded by name: a marshalled stream is one balanced value ([marshal_val1],
      [marshal_skip]); [by_name_fuel]; unknown and deprecated fields. *)
From Coq Require Import Lia ZifyBool ZifyNat ZifyN Arith.
From SbModel Require Import Spec.Conform.
From SbModel Require Import Spec.ConformSpec.
From SbModel Require Import Proofs.MarshalP.
Local Open Scope N_scope.

(* ==== 1. The body of [unm] ==== *)

(* One unfolding of [unm]: the loops as top-level fixpoints over the recursive call [rec], and the dispatch
   split into one definition per token kind.  [unm_S] is proved by [reflexivity]: the definitions below are a
   transcription of the body of [unm] and the kernel checks that they are convertible with it.  If the model
   changes, [unm_S] fails, slowly, and the part that changed has to be transcribed
   again; everything after [unm_S] and [unm_O] treats [unm] as opaque. *)

Section Body.
Variable pf : bytes -> N -> option N.
Variable o : copts.
Variable R : registry.
Variable rec : ty -> gval -> list token -> res (gval * list token).

Fixpoint arr_loop (g : nat) (et : ty) (items : list gval) (idx : nat) (ts : list token) : res (list gval * list token) :=
  match g with
  | O => OutOfFuel
  | S g' =>
    match ts with
    | [] =>
        if Nat.leb (length items) idx then Err ETooMany
        else bind (rec et (nth idx items (zero et)) []) (fun _ => Err EEnd)
    | tk :: rest =>
        if kind tk =? KArrayEnd then Ok (items, rest)
        else if Nat.leb (length items) idx then Err ETooMany
        else bind (rec et (nth idx items (zero et)) ts) (fun r =>
             arr_loop g' et (set_nth idx (fst r) items) (S idx) (snd r))
    end
  end.

Fixpoint slice_loop (g : nat) (et : ty) (acc : list gval) (ts : list token) : res (list gval * list token) :=
  match g with
  | O => OutOfFuel
  | S g' =>
    match ts with
    | [] => bind (rec et (zero et) []) (fun _ => Err EEnd)
    | tk :: rest =>
        if kind tk =? KArrayEnd then Ok (acc, rest)
        else bind (rec et (zero et) ts) (fun r => slice_loop g' et (acc ++ [fst r]) (snd r))
    end
  end.

Fixpoint struct_loop (g : nat) (fs : list (bytes * bool * ty)) (depr : list bytes) (vals : list gval) (ts : list token)
  : res (list gval * list token) :=
  match g with
  | O => OutOfFuel
  | S g' =>
    match ts with
    | [] => Err EEnd
    | tk :: rest =>
        if kind tk =? KObjectEnd then Ok (vals, rest)
        else bind (rec TString (GStr []) ts) (fun nr =>
             let name := match fst nr with GStr s => s | _ => [] end in
             match find_field name fs 0 with
             | Some (i, ft) =>
                 bind (rec ft (nth i vals (zero ft)) (snd nr)) (fun r =>
                 struct_loop g' fs depr (set_nth i (fst r) vals) (snd r))
             | None =>
                 if strict o && negb (existsb (bytes_eqb name) depr) then Err EUnknownField
                 else bind (skip_value 0 (snd nr)) (fun rest' => struct_loop g' fs depr vals rest')
             end)
    end
  end.

Fixpoint newstruct_loop (g : nat) (fs : list (bytes * bool * ty)) (vals : list gval) (ts : list token)
  : res (gval * list token) :=
  match g with
  | O => OutOfFuel
  | S g' =>
    match ts with
    | [] => Err EEnd
    | tk :: rest =>
        if kind tk =? KObjectEnd then Ok (GAny (Some (TStruct fs, GStruct vals)), rest)
        else bind (rec TString (GStr []) ts) (fun nr =>
             let name := match fst nr with GStr s => s | _ => [] end in
             if negb (is_exported_ident name) then Err EBadField
             else if existsb (fun fd => bytes_eqb (fname fd) name) fs then Err EDupField
             else bind (rec TAny (GAny None) (snd nr)) (fun r =>
                  match fst r with
                  | GAny (Some (vt, v)) => newstruct_loop g' (fs ++ [(name, true, vt)]) (vals ++ [v]) (snd r)
                  | _ => Err EEnd
                  end))
    end
  end.

Fixpoint map_loop (g : nat) (kt vt : ty) (isnil : bool) (m : list (gval * gval)) (ts : list token)
  : res (gval * list token) :=
  match g with
  | O => OutOfFuel
  | S g' =>
    match ts with
    | [] => bind (rec kt (zero kt) []) (fun _ => Err EEnd)
    | tk :: rest =>
        if kind tk =? KMapEnd then Ok (GMap isnil m, rest)
        else bind (rec kt (zero kt) ts) (fun kr =>
             let key := iface_key kt (fst kr) in
             if negb (comparable_val key) then Err EBadMapKey
             else
             bind (rec vt (zero vt) (snd kr)) (fun vr =>
             map_loop g' kt vt false (map_set key (fst vr) m) (snd vr)))
    end
  end.

Fixpoint genmap_loop (g : nat) (m : list (gval * gval)) (ts : list token) : res (gval * list token) :=
  match g with
  | O => OutOfFuel
  | S g' =>
    match ts with
    | [] => Err EEnd
    | tk :: rest =>
        if kind tk =? KMapEnd then Ok (GAny (Some (TMap TAny TAny, GMap false m)), rest)
        else bind (rec TAny (GAny None) ts) (fun kr =>
             let key := to_comparable (fst kr) in
             match key with
             | GAny None => Err EBadMapKey
             | GAny (Some (kt, kv)) =>
                 if negb (comparable_ty kt) then Err EBadMapKey
                 else if match kv with GF64 b => f64_is_nan b | GF32 b => f32_is_nan b | _ => false end then Err EBadMapKey
                 else bind (rec TAny (GAny None) (snd kr)) (fun vr =>
                      genmap_loop g' (map_set key (fst vr) m) (snd vr))
             | _ => Err EOther
             end)
    end
  end.

Fixpoint tuple_loop (g : nat) (outs : list ty) (tys : list ty) (vals : list gval) (ts : list token)
  : res (list ty * list gval * list ty * list token) :=
  match g with
  | O => OutOfFuel
  | S g' =>
    match ts with
    | [] => Err EEnd
    | tk :: rest =>
        if kind tk =? KTupleEnd then Ok (outs, vals, tys, rest)
        else match outs with
             | ot :: outs' =>
                 bind (rec ot (zero ot) ts) (fun r => tuple_loop g' outs' (tys ++ [ot]) (vals ++ [fst r]) (snd r))
             | [] =>
                 bind (rec TAny (GAny None) ts) (fun r =>
                 tuple_loop g' [] (tys ++ [dyn_ty (fst r)]) (vals ++ [dyn_val (fst r)]) (snd r))
             end
    end
  end.

Definition is_time (t : ty) : bool := match t with TTime => true | _ => false end.

Definition conv_tok (t : ty) (tk0 : token) : res token :=
  if kind tk0 =? KLiteral
  then match val tk0 with VStr s => convert_literal pf t s | _ => Err EOther end
  else Ok tk0.

Definition time_case (tk : token) (rest : list token) : res (gval * list token) :=
  if kind tk =? KString then
    match val tk with
    | VStr s => if valid_time_enc s then Ok (GTime s, rest) else Err EOther
    | _ => Err EOther
    end
  else Err (EMismatch (kind tk) 24).

Definition nan_case (t ut : ty) (k : N) (rest : list token) : res (gval * list token) :=
  match ut with
  | TF32 => Ok (GF32 f32_nan_bits, rest)
  | TF64 => Ok (GF64 f64_nan_bits, rest)
  | TAny => Ok (GAny (Some (TF64, GF64 f64_nan_bits)), rest)
  | _ => Err (EMismatch k (rk_of t))
  end.

Definition bytes_case (t ut : ty) (cur : gval) (tk : token) (rest : list token) : res (gval * list token) :=
  match ut, val tk with
  | TBytes, VBytes s => Ok (GBytes false s, rest)
  | TByteArray n, VBytes s =>
      let old := bytes_of_gval cur in
      if Nat.ltb n (length s) then Err ETooMany
      else Ok (GBytes false (firstn n s ++ skipn (length s) old), rest)
  | TAny, VBytes s => Ok (GAny (Some (TBytes, GBytes false s)), rest)
  | _, _ => Err (EMismatch (kind tk) (rk_of t))
  end.

Definition array_case (t ut : ty) (cur : gval) (k : N) (rest : list token) : res (gval * list token) :=
  match ut with
  | TArray n e =>
      bind (arr_loop (S (length rest)) e (items_of_gval cur) 0%nat rest) (fun r => Ok (GList false (fst r), snd r))
  | TByteArray n =>
      bind (arr_loop (S (length rest)) (TUint W8) (items_of_gval cur) 0%nat rest) (fun r => Ok (GBytes false (to_bytes (fst r)), snd r))
  | TSlice e =>
      bind (slice_loop (S (length rest)) e (items_of_gval cur) rest) (fun r =>
      Ok (GList (is_nil_container cur && match fst r with [] => true | _ => false end) (fst r), snd r))
  | TBytes =>
      bind (slice_loop (S (length rest)) (TUint W8) (items_of_gval cur) rest) (fun r =>
      Ok (GBytes (is_nil_container cur && match fst r with [] => true | _ => false end) (to_bytes (fst r)), snd r))
  | TAny =>
      bind (slice_loop (S (length rest)) TAny [] rest) (fun r =>
      Ok (GAny (Some (TSlice TAny, GList (match fst r with [] => true | _ => false end) (fst r))), snd r))
  | _ => Err (EMismatch k (rk_of t))
  end.

Definition object_case (t ut : ty) (cur : gval) (k : N) (rest : list token) : res (gval * list token) :=
  match ut with
  | TStruct fs =>
      let vals := match cur with GStruct vs => vs | _ => map (fun fd => zero (snd fd)) fs end in
      bind (struct_loop (S (length rest)) fs (depr_of t) vals rest) (fun r => Ok (GStruct (fst r), snd r))
  | TAny => newstruct_loop (S (length rest)) [] [] rest
  | _ => Err (EMismatch k (rk_of t))
  end.

Definition map_case (t ut : ty) (cur : gval) (k : N) (rest : list token) : res (gval * list token) :=
  match ut with
  | TMap kt vt =>
      let '(isnil, m) := match cur with GMap n m => (n, m) | _ => (true, []) end in
      map_loop (S (length rest)) kt vt isnil m rest
  | TAny => genmap_loop (S (length rest)) [] rest
  | _ => Err (EMismatch k (rk_of t))
  end.

Definition tuple_case (t ut : ty) (k : N) (rest : list token) : res (gval * list token) :=
  match ut with
  | TFunc outs =>
      bind (tuple_loop (S (length rest)) outs [] [] rest) (fun r =>
      let '(outs', vals, tys, rest') := r in
      match outs' with
      | _ :: _ => Err ETooFew
      | [] =>
          if Nat.ltb 50 (length vals) then Err ETooMany
          else if Nat.eqb (length vals) (length outs) then Ok (GFunc (Some vals), rest')
          else Err EBadTuple
      end)
  | TAny =>
      bind (tuple_loop (S (length rest)) [] [] [] rest) (fun r =>
      let '(_, vals, tys, rest') := r in
      if Nat.ltb 50 (length vals) then Err ETooMany
      else Ok (GAny (Some (TFunc tys, GFunc (Some vals))), rest'))
  | _ => Err (EMismatch k (rk_of t))
  end.

Definition typename_case (t ut : ty) (cur : gval) (tk : token) (rest : list token) : res (gval * list token) :=
  match ut, val tk with
  | TAny, VStr name =>
      match reg_lookup R name with
      | Some rt => bind (rec rt (zero rt) rest) (fun r => Ok (GAny (Some (rt, fst r)), snd r))
      | None => rec t cur rest
      end
  | _, _ => rec t cur rest
  end.

Definition scalar_case (t ut : ty) (tk : token) (rest : list token) : res (gval * list token) :=
  match val tk with
  | VNone => Err EBadKind
  | _ =>
      if (kind tk =? KRef) || (kind tk =? KLiteral) then Err EBadKind
      else match ut with
           | TAny => match any_of_token tk with Some d => Ok (GAny (Some d), rest) | None => Err EBadKind end
           | _ => bind (set_scalar t tk) (fun v => Ok (v, rest))
           end
  end.

Definition dispatch (t ut : ty) (cur : gval) (tk : token) (rest : list token) : res (gval * list token) :=
  let k := kind tk in
  if k =? KNaN then nan_case t ut k rest
  else if k =? KBytes then bytes_case t ut cur tk rest
  else if k =? KArray then array_case t ut cur k rest
  else if k =? KObject then object_case t ut cur k rest
  else if k =? KMap then map_case t ut cur k rest
  else if k =? KTuple then tuple_case t ut k rest
  else if k =? KTypeName then typename_case t ut cur tk rest
  else scalar_case t ut tk rest.

Definition ptr_or_dispatch (t ut : ty) (cur : gval) (tk : token) (rest : list token) : res (gval * list token) :=
  match ut with
  | TPtr e => bind (rec e (zero e) (tk :: rest)) (fun r => Ok (GPtr (Some (fst r)), snd r))
  | _ => dispatch t ut cur tk rest
  end.

Definition ustep (t : ty) (cur : gval) (ts : list token) : res (gval * list token) :=
  match ts with
  | [] => match underlying t with
          | TTime => Err (EMismatch KInvalid 24)
          | _ => Err EEnd
          end
  | tk0 :: rest =>
      bind (conv_tok t tk0) (fun tk =>
      if (kind tk =? KTypeName) && negb (match ptr_base t with TAny => true | _ => false end) then rec t cur rest
      else
      match underlying t with
      | TTime => time_case tk rest
      | ut =>
        if kind tk =? KNil then Ok (cur, rest)
        else if is_end_kind (kind tk) then Err EUnexpEndTok
        else ptr_or_dispatch t ut cur tk rest
      end)
  end.

End Body.

Definition rec_t := ty -> gval -> list token -> res (gval * list token).

Lemma unm_S pf f o R t cur ts :
  unm pf (S f) o R t cur ts = ustep pf o R (unm pf f o R) t cur ts.
Proof. reflexivity. Qed.

Lemma unm_O pf o R t cur ts : unm pf 0 o R t cur ts = OutOfFuel.
Proof. reflexivity. Qed.

Global Opaque unm.

Arguments unm_S : clear implicits.

Lemma ustep_cons pf o R rec t cur tk0 rest :
  ustep pf o R rec t cur (tk0 :: rest) =
  bind (conv_tok pf t tk0) (fun tk =>
    if (kind tk =? KTypeName) && negb (match ptr_base t with TAny => true | _ => false end) then rec t cur rest
    else if is_time (underlying t) then time_case tk rest
    else if kind tk =? KNil then Ok (cur, rest)
    else if is_end_kind (kind tk) then Err EUnexpEndTok
    else ptr_or_dispatch o R rec t (underlying t) cur tk rest).
Proof.
  unfold ustep. destruct (conv_tok pf t tk0) as [tk|e|]; [|reflexivity..]. cbn [bind].
  destruct (_ && _); [reflexivity|]. destruct (underlying t); reflexivity.
Qed.

(* ==== 2. Fuel and the stream (C05) ==== *)

(* ---- 2.1 more fuel does not change a result ---- *)

Definition le_res {A} (r1 r2 : res A) : Prop := r1 = OutOfFuel \/ r1 = r2.

Lemma le_res_refl {A} (r : res A) : le_res r r.
Proof. right; reflexivity. Qed.

Lemma bind_le {A B} (r1 r2 : res A) (k1 k2 : A -> res B) :
  le_res r1 r2 -> (forall a, le_res (k1 a) (k2 a)) -> le_res (bind r1 k1) (bind r2 k2).
Proof.
  intros [H|H] Hk; subst.
  - left; reflexivity.
  - destruct r2 as [a|e|]; cbn [bind]; [apply Hk|right; reflexivity|left; reflexivity].
Qed.

Definition rec_le (rec1 rec2 : rec_t) : Prop := forall t cur ts, le_res (rec1 t cur ts) (rec2 t cur ts).

Ltac le_step :=
  match goal with
  | |- le_res ?x ?x => apply le_res_refl
  | |- le_res (bind _ _) (bind _ _) => apply bind_le; [|intros ?]
  | |- le_res (if ?c then _ else _) (if ?c then _ else _) => destruct c
  | |- le_res (match ?x with _ => _ end) (match ?x with _ => _ end) => destruct x
  | H : rec_le ?r1 ?r2 |- le_res (?r1 _ _ _) (?r2 _ _ _) => apply H
  | H : forall _, _ |- _ => apply H
  end.
Ltac le_auto := repeat le_step.

Section Mono.
Variable pf : bytes -> N -> option N.
Variable o : copts.
Variable R : registry.
Variables rec1 rec2 : rec_t.
Hypothesis Hrec : rec_le rec1 rec2.

Lemma arr_loop_le : forall g et items idx ts,
  le_res (arr_loop rec1 g et items idx ts) (arr_loop rec2 g et items idx ts).
Proof. induction g as [|g IH]; intros; cbn [arr_loop]; le_auto. Qed.

Lemma slice_loop_le : forall g et acc ts,
  le_res (slice_loop rec1 g et acc ts) (slice_loop rec2 g et acc ts).
Proof. induction g as [|g IH]; intros; cbn [slice_loop]; le_auto. Qed.

Lemma struct_loop_le : forall g fs depr vals ts,
  le_res (struct_loop o rec1 g fs depr vals ts) (struct_loop o rec2 g fs depr vals ts).
Proof.
  induction g as [|g IH]; intros; cbn [struct_loop]; le_auto.
Qed.

Lemma newstruct_loop_le : forall g fs vals ts,
  le_res (newstruct_loop rec1 g fs vals ts) (newstruct_loop rec2 g fs vals ts).
Proof. induction g as [|g IH]; intros; cbn [newstruct_loop]; le_auto. Qed.

Lemma map_loop_le : forall g kt vt isnil m ts,
  le_res (map_loop rec1 g kt vt isnil m ts) (map_loop rec2 g kt vt isnil m ts).
Proof. induction g as [|g IH]; intros; cbn [map_loop]; le_auto. Qed.

Lemma genmap_loop_le : forall g m ts,
  le_res (genmap_loop rec1 g m ts) (genmap_loop rec2 g m ts).
Proof. induction g as [|g IH]; intros; cbn [genmap_loop]; le_auto. Qed.

Lemma tuple_loop_le : forall g outs tys vals ts,
  le_res (tuple_loop rec1 g outs tys vals ts) (tuple_loop rec2 g outs tys vals ts).
Proof. induction g as [|g IH]; intros; cbn [tuple_loop]; le_auto. Qed.

Lemma dispatch_le t ut cur tk rest :
  le_res (dispatch o R rec1 t ut cur tk rest) (dispatch o R rec2 t ut cur tk rest).
Proof.
  unfold dispatch.
  destruct (kind tk =? KNaN); [apply le_res_refl|].
  destruct (kind tk =? KBytes); [apply le_res_refl|].
  destruct (kind tk =? KArray).
  { unfold array_case. destruct ut; le_auto; (apply arr_loop_le || apply slice_loop_le). }
  destruct (kind tk =? KObject).
  { unfold object_case. destruct ut; le_auto; (apply struct_loop_le || apply newstruct_loop_le). }
  destruct (kind tk =? KMap).
  { unfold map_case. destruct ut; le_auto; (apply map_loop_le || apply genmap_loop_le). }
  destruct (kind tk =? KTuple).
  { unfold tuple_case. destruct ut; le_auto; apply tuple_loop_le. }
  destruct (kind tk =? KTypeName).
  { unfold typename_case. destruct ut; le_auto. }
  apply le_res_refl.
Qed.

Lemma ptr_or_dispatch_le t ut cur tk rest :
  le_res (ptr_or_dispatch o R rec1 t ut cur tk rest) (ptr_or_dispatch o R rec2 t ut cur tk rest).
Proof. unfold ptr_or_dispatch. destruct ut; try apply dispatch_le. le_auto. Qed.

Lemma ustep_le t cur ts :
  le_res (ustep pf o R rec1 t cur ts) (ustep pf o R rec2 t cur ts).
Proof.
  destruct ts as [|tk0 rest]; [apply le_res_refl|]. rewrite !ustep_cons. le_auto. apply ptr_or_dispatch_le.
Qed.

End Mono.

Lemma unm_rec_le pf o R : forall f f', (f <= f')%nat -> rec_le (unm pf f o R) (unm pf f' o R).
Proof.
  induction f as [|f IH]; intros f' Hle t cur ts.
  - left. apply unm_O.
  - destruct f' as [|f']; [lia|].
    rewrite !unm_S. apply ustep_le. apply IH. lia.
Qed.

Theorem unm_fuel_mono pf o R : forall f t cur ts r,
  unm pf f o R t cur ts = r -> r <> OutOfFuel ->
  forall f', (f <= f')%nat -> unm pf f' o R t cur ts = r.
Proof.
  intros f t cur ts r Hr Hne f' Hle.
  destruct (unm_rec_le pf o R f f' Hle t cur ts) as [H|H]; congruence.
Qed.

(* ---- 2.2 every successful call consumes a non-empty prefix of its input ---- *)

Definition ssuffix (rest ts : list token) : Prop := exists used, ts = used ++ rest /\ used <> [].
Definition wsuffix (rest ts : list token) : Prop := exists used, ts = used ++ rest.

Definition sfx {X} (ts : list token) (r : res (X * list token)) : Prop :=
  forall x, r = Ok x -> ssuffix (snd x) ts.
Definition wsfx {X} (ts : list token) (r : res (X * list token)) : Prop :=
  forall x, r = Ok x -> wsuffix (snd x) ts.

Lemma ssuffix_length rest ts : ssuffix rest ts -> (length rest < length ts)%nat.
Proof.
  intros (used & -> & Hne). rewrite app_length. destruct used; [congruence|cbn; lia].
Qed.
Lemma wsuffix_length rest ts : wsuffix rest ts -> (length rest <= length ts)%nat.
Proof. intros (used & ->). rewrite app_length. lia. Qed.

Lemma ssuffix_w rest ts : ssuffix rest ts -> wsuffix rest ts.
Proof. intros (u & H & _); exists u; exact H. Qed.
Lemma ssuffix_trans_w a b c : ssuffix a b -> wsuffix b c -> ssuffix a c.
Proof.
  intros (u & -> & Hu) (w & ->). exists (w ++ u). split; [now rewrite app_assoc|].
  intros H. apply app_eq_nil in H. tauto.
Qed.
Lemma wsuffix_trans_s a b c : wsuffix a b -> ssuffix b c -> ssuffix a c.
Proof.
  intros (u & ->) (w & -> & Hw). exists (w ++ u). split; [now rewrite app_assoc|].
  intros H. apply app_eq_nil in H. tauto.
Qed.
Lemma wsuffix_cons a tk ts : wsuffix a ts -> ssuffix a (tk :: ts).
Proof. intros (u & ->). exists (tk :: u). split; [reflexivity|discriminate]. Qed.
Lemma ssuffix_head a tk tk' ts : ssuffix a (tk :: ts) -> ssuffix a (tk' :: ts).
Proof.
  intros (u & H & Hu). destruct u as [|x u]; [congruence|]. cbn in H. injection H as _ H.
  exists (tk' :: u). split; [cbn; now rewrite H|discriminate].
Qed.
Lemma wsuffix_refl a : wsuffix a a.
Proof. exists []; reflexivity. Qed.

Lemma sfx_w {X} ts (r : res (X * list token)) : sfx ts r -> wsfx ts r.
Proof. intros H x Hx. apply ssuffix_w, (H x Hx). Qed.
Lemma wsfx_ok {X} ts (v : X) : wsfx ts (Ok (v, ts)).
Proof. intros x [= <-]. apply wsuffix_refl. Qed.
Lemma sfx_ok_cons {X} tk ts (v : X) : sfx (tk :: ts) (Ok (v, ts)).
Proof. intros x [= <-]. apply wsuffix_cons, wsuffix_refl. Qed.
Lemma sfx_err {X} ts e : @sfx X ts (Err e).
Proof. intros x H; discriminate. Qed.
Lemma wsfx_err {X} ts e : @wsfx X ts (Err e).
Proof. intros x H; discriminate. Qed.
Lemma sfx_oof {X} ts : @sfx X ts OutOfFuel.
Proof. intros x H; discriminate. Qed.
Lemma wsfx_oof {X} ts : @wsfx X ts OutOfFuel.
Proof. intros x H; discriminate. Qed.

Lemma bind_sfx {X Y} ts (r : res (X * list token)) (k : X * list token -> res (Y * list token)) :
  sfx ts r -> (forall a, wsfx (snd a) (k a)) -> sfx ts (bind r k).
Proof.
  intros Hr Hk y Hy. destruct r as [a|e|]; cbn [bind] in Hy; try discriminate.
  eapply wsuffix_trans_s; [apply (Hk a y Hy)|apply (Hr a eq_refl)].
Qed.
Lemma sfx_cons_w {X} tk ts (r : res (X * list token)) : wsfx ts r -> sfx (tk :: ts) r.
Proof. intros H x Hx. apply wsuffix_cons, (H x Hx). Qed.
Lemma sfx_head {X} tk tk' ts (r : res (X * list token)) : sfx (tk :: ts) r -> sfx (tk' :: ts) r.
Proof. intros H x Hx. eapply ssuffix_head, (H x Hx). Qed.

Lemma wsuffix_trans_w a b c : wsuffix a b -> wsuffix b c -> wsuffix a c.
Proof. intros (u & ->) (w & ->). exists (w ++ u). now rewrite app_assoc. Qed.

Lemma skip_value_suffix : forall ts d rest, skip_value d ts = Ok rest -> ssuffix rest ts.
Proof.
  induction ts as [|tk ts IH]; intros d rest; cbn [skip_value]; [discriminate|].
  destruct (is_open_kind (kind tk)); [intros H; apply wsuffix_cons, ssuffix_w, (IH _ _ H)|].
  destruct (kind tk =? KTypeName); [intros H; apply wsuffix_cons, ssuffix_w, (IH _ _ H)|].
  destruct (is_end_kind (kind tk)).
  - destruct d as [|[|d]]; [discriminate|intros [= <-]; apply wsuffix_cons, wsuffix_refl|].
    intros H; apply wsuffix_cons, ssuffix_w, (IH _ _ H).
  - destruct d as [|d]; [intros [= <-]; apply wsuffix_cons, wsuffix_refl|].
    intros H; apply wsuffix_cons, ssuffix_w, (IH _ _ H).
Qed.

Lemma skip_value_noof : forall ts d, skip_value d ts <> OutOfFuel.
Proof.
  induction ts as [|tk ts IH]; intros d; cbn [skip_value]; [discriminate|].
  destruct (is_open_kind (kind tk)); [apply IH|].
  destruct (kind tk =? KTypeName); [apply IH|].
  destruct (is_end_kind (kind tk)).
  - destruct d as [|[|d]]; [discriminate|discriminate|apply IH].
  - destruct d as [|d]; [discriminate|apply IH].
Qed.

Lemma set_scalar_noof t tk : set_scalar t tk <> OutOfFuel.
Proof.
  unfold set_scalar. destruct (val tk); destruct (underlying t); try discriminate;
    match goal with |- (if ?c then _ else _) <> _ => destruct c; discriminate end.
Qed.

(* the cases of [dispatch] that do not recurse fail, or consume exactly the head token *)
Definition head_only {X} (rest : list token) (r : res (X * list token)) : Prop :=
  match r with Ok (_, rest') => rest' = rest | Err _ => True | OutOfFuel => False end.

Lemma head_only_sfx {X} tk rest (r : res (X * list token)) : head_only rest r -> sfx (tk :: rest) r.
Proof. destruct r as [[v rest']|e|]; cbn; [intros ->; apply sfx_ok_cons|intros _; apply sfx_err|contradiction]. Qed.

Lemma head_only_noof {X} rest (r : res (X * list token)) : head_only rest r -> r <> OutOfFuel.
Proof. destruct r; [discriminate|discriminate|contradiction]. Qed.

Lemma nan_case_head t ut k rest : head_only rest (nan_case t ut k rest).
Proof. unfold nan_case. destruct ut; cbn; trivial. Qed.

Lemma bytes_case_head t ut cur tk rest : head_only rest (bytes_case t ut cur tk rest).
Proof.
  unfold bytes_case. destruct ut; try exact I; destruct (val tk); try exact I; try reflexivity.
  destruct (Nat.ltb _ _); [exact I|reflexivity].
Qed.

Lemma scalar_case_head t ut tk rest : head_only rest (scalar_case t ut tk rest).
Proof.
  unfold scalar_case.
  match goal with |- context [if _ then _ else ?x] => assert (Hx : head_only rest x) end.
  { destruct ut; try (destruct (set_scalar t tk) eqn:E; [reflexivity|exact I|exact (set_scalar_noof _ _ E)]).
    destruct (any_of_token tk); [reflexivity|exact I]. }
  destruct (val tk); try exact I; (destruct (_ || _); [exact I|exact Hx]).
Qed.

Lemma time_case_head tk rest : head_only rest (time_case tk rest).
Proof.
  unfold time_case. destruct (kind tk =? KString); [|exact I]. destruct (val tk); try exact I.
  destruct (valid_time_enc _); [reflexivity|exact I].
Qed.

Definition rec_sfx (rec : rec_t) : Prop := forall t cur ts, sfx ts (rec t cur ts).

Ltac sfx_step :=
  match goal with
  | |- wsfx ?ts (Ok (_, ?ts)) => apply wsfx_ok
  | |- wsfx _ (Ok _) => apply wsfx_ok
  | |- wsfx _ (Err _) => apply wsfx_err
  | |- sfx _ (Err _) => apply sfx_err
  | |- wsfx _ OutOfFuel => apply wsfx_oof
  | |- sfx _ OutOfFuel => apply sfx_oof
  | |- sfx (_ :: ?ts) (Ok (_, ?ts)) => apply sfx_ok_cons
  | |- sfx _ (bind _ _) => apply bind_sfx; [|intros ?]
  | |- wsfx _ (bind _ _) => apply sfx_w
  | |- _ _ (if ?c then _ else _) => destruct c
  | |- _ _ (match ?x with _ => _ end) => destruct x
  | H : rec_sfx ?r |- sfx _ (?r _ _ _) => apply H
  | H : rec_sfx ?r |- wsfx _ (?r _ _ _) => apply sfx_w, H
  | H : forall _, _ |- sfx _ _ => apply H
  | H : forall _, _ |- wsfx _ _ => apply sfx_w, H
  end.
Ltac sfx_auto := repeat (sfx_step; cbn [fst snd]).

Section Suffix.
Variable pf : bytes -> N -> option N.
Variable o : copts.
Variable R : registry.
Variable rec : rec_t.
Hypothesis Hrec : rec_sfx rec.

Lemma arr_loop_sfx : forall g et items idx ts, sfx ts (arr_loop rec g et items idx ts).
Proof. induction g as [|g IH]; intros; cbn [arr_loop]; sfx_auto. Qed.

Lemma slice_loop_sfx : forall g et acc ts, sfx ts (slice_loop rec g et acc ts).
Proof. induction g as [|g IH]; intros; cbn [slice_loop]; sfx_auto. Qed.

Lemma struct_loop_sfx : forall g fs depr vals ts, sfx ts (struct_loop o rec g fs depr vals ts).
Proof.
  induction g as [|g IH]; intros; cbn [struct_loop]; sfx_auto.
  destruct (skip_value 0 (snd a)) as [rest'|e|] eqn:Hsk; cbn [bind]; sfx_auto.
  intros x Hx. eapply ssuffix_trans_w; [apply (IH _ _ _ _ x Hx)|apply ssuffix_w, (skip_value_suffix _ _ _ Hsk)].
Qed.

Lemma newstruct_loop_sfx : forall g fs vals ts, sfx ts (newstruct_loop rec g fs vals ts).
Proof. induction g as [|g IH]; intros; cbn [newstruct_loop]; sfx_auto. Qed.

Lemma map_loop_sfx : forall g kt vt isnil m ts, sfx ts (map_loop rec g kt vt isnil m ts).
Proof. induction g as [|g IH]; intros; cbn [map_loop]; sfx_auto. Qed.

Lemma genmap_loop_sfx : forall g m ts, sfx ts (genmap_loop rec g m ts).
Proof. induction g as [|g IH]; intros; cbn [genmap_loop]; sfx_auto. Qed.

Lemma tuple_loop_sfx : forall g outs tys vals ts, sfx ts (tuple_loop rec g outs tys vals ts).
Proof. induction g as [|g IH]; intros; cbn [tuple_loop]; sfx_auto. Qed.

Lemma dispatch_sfx t ut cur tk tk0 rest : sfx (tk0 :: rest) (dispatch o R rec t ut cur tk rest).
Proof.
  unfold dispatch.
  destruct (kind tk =? KNaN); [apply head_only_sfx, nan_case_head|].
  destruct (kind tk =? KBytes); [apply head_only_sfx, bytes_case_head|].
  destruct (kind tk =? KArray).
  { unfold array_case. destruct ut; try apply sfx_err; apply sfx_cons_w, sfx_w; sfx_auto;
      (apply arr_loop_sfx || apply slice_loop_sfx). }
  destruct (kind tk =? KObject).
  { unfold object_case. destruct ut; try apply sfx_err; apply sfx_cons_w, sfx_w; sfx_auto;
      (apply struct_loop_sfx || apply newstruct_loop_sfx). }
  destruct (kind tk =? KMap).
  { unfold map_case. destruct ut; try apply sfx_err; apply sfx_cons_w, sfx_w; sfx_auto;
      (apply map_loop_sfx || apply genmap_loop_sfx). }
  destruct (kind tk =? KTuple).
  { unfold tuple_case. destruct ut; try apply sfx_err; apply sfx_cons_w, sfx_w; sfx_auto;
      apply tuple_loop_sfx. }
  destruct (kind tk =? KTypeName).
  { unfold typename_case. destruct ut; apply sfx_cons_w, sfx_w; sfx_auto. }
  apply head_only_sfx, scalar_case_head.
Qed.

Lemma ptr_or_dispatch_sfx t ut cur tk tk0 rest : sfx (tk0 :: rest) (ptr_or_dispatch o R rec t ut cur tk rest).
Proof.
  unfold ptr_or_dispatch. destruct ut; try apply dispatch_sfx. apply sfx_head with (tk := tk). sfx_auto.
Qed.

Lemma ustep_sfx t cur ts : sfx ts (ustep pf o R rec t cur ts).
Proof.
  destruct ts as [|tk0 rest]; [unfold ustep; destruct (underlying t); sfx_auto|]. rewrite ustep_cons.
  destruct (conv_tok pf t tk0) as [tk|e|]; cbn [bind]; [|apply sfx_err|apply sfx_oof].
  destruct (_ && _); [apply sfx_cons_w, sfx_w, Hrec|].
  destruct (is_time _); [apply head_only_sfx, time_case_head|].
  destruct (kind tk =? KNil); [apply sfx_ok_cons|]. destruct (is_end_kind _); [apply sfx_err|].
  apply ptr_or_dispatch_sfx.
Qed.

End Suffix.

Lemma unm_rec_sfx pf o R : forall f, rec_sfx (unm pf f o R).
Proof.
  induction f as [|f IH]; intros t cur ts.
  - rewrite unm_O. apply sfx_oof.
  - rewrite unm_S. apply ustep_sfx, IH.
Qed.

Theorem unm_suffix pf f o R t cur ts v rest :
  unm pf f o R t cur ts = Ok (v, rest) -> exists used, ts = used ++ rest /\ used <> [].
Proof. intros H. exact (unm_rec_sfx pf o R f t cur ts (v, rest) H). Qed.

Corollary unm_consumes pf f o R t cur ts v rest :
  unm pf f o R t cur ts = Ok (v, rest) -> (length rest < length ts)%nat.
Proof. intros H. apply ssuffix_length. exact (unm_suffix _ _ _ _ _ _ _ _ _ H). Qed.

(* ---- 2.3 totality with an explicit fuel bound ---- *)

Fixpoint ty_depth (t : ty) : nat :=
  match t with
  | TArray _ e | TSlice e | TPtr e => S (ty_depth e)
  | TMap k v => S (Nat.max (ty_depth k) (ty_depth v))
  | TStruct fs =>
      S ((fix go (l : list (bytes * bool * ty)) : nat :=
            match l with [] => O | f :: r => Nat.max (ty_depth (snd f)) (go r) end) fs)
  | TFunc outs =>
      S ((fix go (l : list ty) : nat :=
            match l with [] => O | x :: r => Nat.max (ty_depth x) (go r) end) outs)
  | TNamed _ _ _ u => S (ty_depth u)
  | _ => 1%nat
  end.

Fixpoint reg_depth (R : registry) : nat :=
  match R with [] => O | p :: r => Nat.max (ty_depth (snd p)) (reg_depth r) end.

(* the fuel measure: every nested call either consumes a token (and may switch to a registry
   type, whose pointer chain is at most reg_depth long) or descends into the type *)
Definition mu (R : registry) (t : ty) (ts : list token) : nat :=
  (length ts * S (reg_depth R) + ty_depth t)%nat.

Lemma ty_depth_pos t : (1 <= ty_depth t)%nat.
Proof. destruct t; cbn; lia. Qed.

Lemma ty_depth_underlying t : (ty_depth (underlying t) <= ty_depth t)%nat.
Proof. induction t; cbn [underlying ty_depth]; try lia. Qed.

Lemma fields_depth fs t' : In t' (map snd fs) -> (ty_depth t' < ty_depth (TStruct fs))%nat.
Proof.
  cbn [ty_depth]. induction fs as [|f fs IH]; cbn [map In]; [tauto|].
  intros [<-|H]; [lia|]. specialize (IH H). lia.
Qed.

Lemma outs_depth outs t' : In t' outs -> (ty_depth t' < ty_depth (TFunc outs))%nat.
Proof.
  cbn [ty_depth]. induction outs as [|x outs IH]; cbn [In]; [tauto|].
  intros [<-|H]; [lia|]. specialize (IH H). lia.
Qed.

Lemma reg_lookup_depth R name rt : reg_lookup R name = Some rt -> (ty_depth rt <= reg_depth R)%nat.
Proof.
  induction R as [|[n t] R IH]; cbn [reg_lookup reg_depth snd]; [discriminate|].
  destruct (bytes_eqb n name); [intros [= ->]; lia|]. intros H. specialize (IH H). lia.
Qed.

Lemma find_field_In name fs : forall i j ft, find_field name fs i = Some (j, ft) -> In ft (map snd fs).
Proof.
  induction fs as [|f fs IH]; intros i j ft; cbn [find_field map In]; [discriminate|].
  destruct (fexported f && bytes_eqb (fname f) name); [intros [= _ <-]; now left|].
  intros H. right. eapply IH, H.
Qed.

Lemma mu_lt_tokens R t t' tk0 rest ts' :
  (length ts' <= length rest)%nat -> (ty_depth t' <= ty_depth t + reg_depth R)%nat ->
  (mu R t' ts' < mu R t (tk0 :: rest))%nat.
Proof.
  unfold mu. cbn [length]. intros H1 H2.
  pose proof (Nat.mul_le_mono_r _ _ (S (reg_depth R)) H1). lia.
Qed.

Lemma mu_lt_depth R t t' tk tk0 rest :
  (ty_depth t' < ty_depth t)%nat -> (mu R t' (tk :: rest) < mu R t (tk0 :: rest))%nat.
Proof. unfold mu. cbn [length]. lia. Qed.

Lemma bind_assoc {A B C} (r : res A) (k1 : A -> res B) (k2 : B -> res C) :
  bind (bind r k1) k2 = bind r (fun a => bind (k1 a) k2).
Proof. destruct r; reflexivity. Qed.

Lemma bind_noof {A B} (r : res A) (k : A -> res B) :
  r <> OutOfFuel -> (forall a, r = Ok a -> k a <> OutOfFuel) -> bind r k <> OutOfFuel.
Proof. intros Hr Hk. destruct r as [a|e|]; cbn [bind]; [apply Hk; reflexivity|discriminate|congruence]. Qed.

Lemma conv_tok_noof pf t tk0 : conv_tok pf t tk0 <> OutOfFuel.
Proof.
  unfold conv_tok. destruct (kind tk0 =? KLiteral); [|discriminate]. destruct (val tk0); try discriminate.
  unfold convert_literal. destruct (underlying t); try discriminate;
    match goal with |- match ?x with _ => _ end <> _ => destruct x; discriminate end.
Qed.

Section Total.
Variable pf : bytes -> N -> option N.
Variable o : copts.
Variable R : registry.
Variable rec : rec_t.
Hypothesis Hsfx : rec_sfx rec.

Definition okrec (D L : nat) : Prop :=
  forall t' cur' ts', (ty_depth t' <= D)%nat -> (length ts' <= L)%nat -> rec t' cur' ts' <> OutOfFuel.

Lemma okrec_le D L L' : okrec D L -> (L' <= L)%nat -> okrec D L'.
Proof. intros H Hle t' cur' ts' HD Hl. apply H; [exact HD|lia]. Qed.

Lemma rec_len t cur ts a : rec t cur ts = Ok a -> (length (snd a) < length ts)%nat.
Proof. intros H. apply ssuffix_length. exact (Hsfx t cur ts a H). Qed.

Ltac tot_step :=
  match goal with
  | |- Ok _ <> OutOfFuel => discriminate
  | |- Err _ <> OutOfFuel => discriminate
  | |- bind _ _ <> OutOfFuel => apply bind_noof; [|let a := fresh "a" in let Ha := fresh "Ha" in
                                                   intros a Ha; try (pose proof (rec_len _ _ _ _ Ha))]
  | |- (if ?c then _ else _) <> OutOfFuel => destruct c
  | |- (match ?x with _ => _ end) <> OutOfFuel => destruct x eqn:?
  end.
Ltac tot_auto := repeat (tot_step; cbn [fst snd length] in * ).

(* a call of rec on a type whose depth bound is at hand, or the next round of the loop *)
Ltac tot_fin Hok IH :=
  first [ apply Hok; [assumption || (cbn [ty_depth]; lia)|cbn [length]; lia]
        | apply IH; [lia|assumption..|eapply okrec_le; [exact Hok|cbn [length]; lia]] ].

Lemma arr_loop_tot D : forall g et items idx ts, (length ts < g)%nat -> (ty_depth et <= D)%nat ->
  okrec D (length ts) -> arr_loop rec g et items idx ts <> OutOfFuel.
Proof.
  induction g as [|g IH]; intros et items idx ts Hg Het Hok; [lia|]. cbn [arr_loop]. tot_auto.
  all: tot_fin Hok IH.
Qed.

Lemma slice_loop_tot D : forall g et acc ts, (length ts < g)%nat -> (ty_depth et <= D)%nat ->
  okrec D (length ts) -> slice_loop rec g et acc ts <> OutOfFuel.
Proof.
  induction g as [|g IH]; intros et acc ts Hg Het Hok; [lia|]. cbn [slice_loop]. tot_auto.
  all: tot_fin Hok IH.
Qed.

Lemma struct_loop_tot D : forall g fs depr vals ts, (length ts < g)%nat ->
  (forall ft, In ft (map snd fs) -> (ty_depth ft <= D)%nat) -> (1 <= D)%nat -> okrec D (length ts) ->
  struct_loop o rec g fs depr vals ts <> OutOfFuel.
Proof.
  induction g as [|g IH]; intros fs depr vals ts Hg Hfs HD Hok; [lia|]. cbn [struct_loop]. tot_auto.
  - tot_fin Hok IH.
  - apply Hok; [eapply Hfs, find_field_In; eassumption|cbn; lia].
  - tot_fin Hok IH.
  - apply skip_value_noof.
  - pose proof (ssuffix_length _ _ (skip_value_suffix _ _ _ Ha0)). tot_fin Hok IH.
Qed.

Lemma newstruct_loop_tot D : forall g fs vals ts, (length ts < g)%nat -> (1 <= D)%nat -> okrec D (length ts) ->
  newstruct_loop rec g fs vals ts <> OutOfFuel.
Proof.
  induction g as [|g IH]; intros fs vals ts Hg HD Hok; [lia|]. cbn [newstruct_loop]. tot_auto.
  all: tot_fin Hok IH.
Qed.

Lemma map_loop_tot D : forall g kt vt isnil m ts, (length ts < g)%nat ->
  (ty_depth kt <= D)%nat -> (ty_depth vt <= D)%nat -> okrec D (length ts) ->
  map_loop rec g kt vt isnil m ts <> OutOfFuel.
Proof.
  induction g as [|g IH]; intros kt vt isnil m ts Hg Hkt Hvt Hok; [lia|]. cbn [map_loop]. tot_auto.
  all: tot_fin Hok IH.
Qed.

Lemma genmap_loop_tot D : forall g m ts, (length ts < g)%nat -> (1 <= D)%nat -> okrec D (length ts) ->
  genmap_loop rec g m ts <> OutOfFuel.
Proof.
  induction g as [|g IH]; intros m ts Hg HD Hok; [lia|]. cbn [genmap_loop]. tot_auto.
  all: tot_fin Hok IH.
Qed.

Lemma tuple_loop_tot D : forall g outs tys vals ts, (length ts < g)%nat ->
  (forall ot, In ot outs -> (ty_depth ot <= D)%nat) -> (1 <= D)%nat -> okrec D (length ts) ->
  tuple_loop rec g outs tys vals ts <> OutOfFuel.
Proof.
  induction g as [|g IH]; intros outs tys vals ts Hg Houts HD Hok; [lia|]. cbn [tuple_loop]. tot_auto.
  - tot_fin Hok IH.
  - tot_fin Hok IH.
  - apply Hok; [apply Houts; left; reflexivity|cbn [length]; lia].
  - apply IH; [lia|intros ot Hin; apply Houts; right; exact Hin|exact HD|].
    eapply okrec_le; [exact Hok|cbn [length]; lia].
Qed.

Section StepTotal.
Variable t : ty.
Variable tk0 : token.
Variable rest : list token.
Hypothesis Hok : forall t' cur' ts', (mu R t' ts' < mu R t (tk0 :: rest))%nat -> rec t' cur' ts' <> OutOfFuel.

Lemma okrec_mu : okrec (ty_depth t) (length rest).
Proof. intros t' cur' ts' Ht' Hl. apply Hok, mu_lt_tokens; [exact Hl|lia]. Qed.

Lemma dispatch_tot ut cur tk : ut = underlying t -> dispatch o R rec t ut cur tk rest <> OutOfFuel.
Proof.
  intros Hut. pose proof (ty_depth_underlying t) as Hd. rewrite <- Hut in Hd. pose proof (ty_depth_pos t) as Hpos.
  unfold dispatch.
  destruct (kind tk =? KNaN); [eapply head_only_noof, nan_case_head|].
  destruct (kind tk =? KBytes); [eapply head_only_noof, bytes_case_head|].
  destruct (kind tk =? KArray).
  { unfold array_case. destruct ut; try discriminate; (apply bind_noof; [|discriminate]);
      (apply (arr_loop_tot (ty_depth t)) || apply (slice_loop_tot (ty_depth t))); try exact okrec_mu;
      cbn [ty_depth] in *; lia. }
  destruct (kind tk =? KObject).
  { unfold object_case. destruct ut; try discriminate.
    - apply bind_noof; [|discriminate]. apply (struct_loop_tot (ty_depth t)); try exact okrec_mu; try lia.
      intros ft Hin. apply fields_depth in Hin. cbn [ty_depth] in *. lia.
    - apply (newstruct_loop_tot (ty_depth t)); try exact okrec_mu; lia. }
  destruct (kind tk =? KMap).
  { unfold map_case. destruct ut; try discriminate.
    - destruct (match cur with GMap n m => (n, m) | _ => (true, []) end) as [isnil m].
      apply (map_loop_tot (ty_depth t)); try exact okrec_mu; cbn [ty_depth] in *; lia.
    - apply (genmap_loop_tot (ty_depth t)); try exact okrec_mu; lia. }
  destruct (kind tk =? KTuple).
  { unfold tuple_case. destruct ut; try discriminate;
      (apply bind_noof; [apply (tuple_loop_tot (ty_depth t)); try exact okrec_mu; try lia|
                         intros [[[outs' vals] tys] rest'] _; tot_auto]).
    - intros ot [].
    - intros ot Hin. apply outs_depth in Hin. cbn [ty_depth] in *. lia. }
  destruct (kind tk =? KTypeName).
  { assert (Hself : forall c, rec t c rest <> OutOfFuel).
    { intros c. apply Hok. apply mu_lt_tokens; lia. }
    unfold typename_case. destruct ut; try apply Hself; destruct (val tk); try apply Hself.
    destruct (reg_lookup R s) as [rt|] eqn:Hrt; [|apply Hself].
    apply bind_noof; [|discriminate]. apply Hok. apply mu_lt_tokens; [lia|].
    apply reg_lookup_depth in Hrt. lia. }
  eapply head_only_noof, scalar_case_head.
Qed.

Lemma ptr_or_dispatch_tot cur tk : ptr_or_dispatch o R rec t (underlying t) cur tk rest <> OutOfFuel.
Proof.
  unfold ptr_or_dispatch. destruct (underlying t) eqn:Hut; try (apply dispatch_tot; symmetry; exact Hut).
  apply bind_noof; [|discriminate]. apply Hok. apply mu_lt_depth.
  pose proof (ty_depth_underlying t) as Hd. rewrite Hut in Hd. cbn [ty_depth] in Hd. clear - Hd. lia.
Qed.

Lemma ustep_tot cur : ustep pf o R rec t cur (tk0 :: rest) <> OutOfFuel.
Proof.
  rewrite ustep_cons. apply bind_noof; [apply conv_tok_noof|]. intros tk _.
  destruct (_ && _); [apply Hok, mu_lt_tokens; lia|].
  destruct (is_time _); [eapply head_only_noof, time_case_head|].
  destruct (kind tk =? KNil); [discriminate|]. destruct (is_end_kind _); [discriminate|].
  apply ptr_or_dispatch_tot.
Qed.
End StepTotal.

Lemma ustep_tot_nil t cur : ustep pf o R rec t cur [] <> OutOfFuel.
Proof. unfold ustep. destruct (underlying t); discriminate. Qed.

End Total.

Lemma unm_total_mu pf o R : forall n t cur ts, (mu R t ts < n)%nat -> unm pf n o R t cur ts <> OutOfFuel.
Proof.
  induction n as [|n IH]; intros t cur ts Hmu; [lia|].
  rewrite unm_S. destruct ts as [|tk0 rest]; [apply ustep_tot_nil|].
  apply ustep_tot; [apply unm_rec_sfx|].
  intros t' cur' ts' Hlt. apply IH. lia.
Qed.

Theorem unm_total_bound pf o R t cur ts :
  unm pf (length ts * S (reg_depth R) + ty_depth t + 1) o R t cur ts <> OutOfFuel.
Proof. apply unm_total_mu. unfold mu. lia. Qed.

Theorem unm_total pf o R t cur ts : exists f, unm pf f o R t cur ts <> OutOfFuel.
Proof. eexists. apply unm_total_bound. Qed.

Corollary unm_fuel_enough pf o R t cur ts f :
  (length ts * S (reg_depth R) + ty_depth t + 1 <= f)%nat ->
  unm pf f o R t cur ts = unm pf (length ts * S (reg_depth R) + ty_depth t + 1) o R t cur ts.
Proof.
  intros Hle. eapply unm_fuel_mono; [reflexivity|apply unm_total_bound|exact Hle].
Qed.

(* why [unm_total_bound] multiplies [length ts] by [reg_depth R]: an additive bound such as
   2 * length ts + ty_depth t + reg_depth R + 3 is false.  Each TypeName token can switch an `any` target to
   a registered type; [P3any] is six pointers deep and ends in `any` again, so every TypeName token of
   [tn_stream n] is paid for with a descent through the whole chain *)
Definition P3any : ty := TNamed [80] true [] (TPtr (TPtr (TPtr (TPtr (TPtr (TPtr TAny)))))).
Definition R_P3 : registry := [([80], P3any)].
Definition tn_stream (n : nat) : list token := repeat (T KTypeName (VStr [80])) n ++ [T KBool (VBool true)].

Theorem unm_total_additive_refuted :
  exists pf o R t cur ts,
    unm pf (2 * length ts + ty_depth t + reg_depth R + 3) o R t cur ts = OutOfFuel.
Proof.
  exists (fun _ _ => None), default_opts, R_P3, TAny, (GAny None), (tn_stream 10).
  vm_compute. reflexivity.
Qed.

Lemma unm_fuel_agree pf o R f f' t cur ts :
  unm pf f o R t cur ts <> OutOfFuel -> unm pf f' o R t cur ts <> OutOfFuel ->
  unm pf f o R t cur ts = unm pf f' o R t cur ts.
Proof.
  intros H H'. destruct (Nat.le_ge_cases f f') as [L|L]; [symmetry|];
    (eapply unm_fuel_mono; [reflexivity|eassumption|exact L]).
Qed.

Lemma unm_only pf o R t cur ts f0 r : unm pf f0 o R t cur ts = r -> r <> OutOfFuel ->
  forall f, unm pf f o R t cur ts = OutOfFuel \/ unm pf f o R t cur ts = r.
Proof.
  intros H0 Hr f. destruct (unm pf f o R t cur ts) eqn:E; [right|right|left; reflexivity];
    rewrite <- H0, <- E; apply unm_fuel_agree; rewrite ?E, ?H0; (discriminate || exact Hr).
Qed.

(* ==== 3. One step of [unm] ==== *)
(* A step is followed through these equations with [ptr_or_dispatch], [dispatch], the [*_case]s and the
   loops folded; a [*_case] is unfolded once its token kind is known. *)

(* ---- 3.1 token kinds and targets; [plain_kind], [structural_kinds] and [concrete_target] are those of
        Spec/ConformSpec.v ---- *)
(* used as [plain_kind_neq k KNil Hp eq_refl : (k =? KNil) = false] *)
Lemma plain_kind_neq k k' : plain_kind k = true -> plain_kind k' = false -> (k =? k') = false.
Proof. intros Hk Hk'. apply N.eqb_neq. intros ->. congruence. Qed.

Lemma kind_cases k : plain_kind k = true \/ In k structural_kinds.
Proof.
  unfold plain_kind. destruct (existsb (N.eqb k) structural_kinds) eqn:E; [right|left; reflexivity].
  apply existsb_exists in E. destruct E as (k' & Hin & E). apply N.eqb_eq in E. subst k'. exact Hin.
Qed.

Ltac plain Hp := rewrite ?(plain_kind_neq _ _ Hp) by reflexivity.

Lemma plain_not_end k : plain_kind k = true -> is_end_kind k = false.
Proof. intros Hp. unfold is_end_kind. plain Hp. reflexivity. Qed.

Lemma end_kind_neq k k' : is_end_kind k = true -> is_end_kind k' = false -> (k =? k') = false.
Proof. intros Hk Hk'. apply N.eqb_neq. intros ->. congruence. Qed.

Lemma end_kind_cases k : is_end_kind k = true -> k = KArrayEnd \/ k = KObjectEnd \/ k = KMapEnd \/ k = KTupleEnd.
Proof. unfold is_end_kind, KArrayEnd, KObjectEnd, KMapEnd, KTupleEnd. lia. Qed.

Lemma not_end_kind_neq k k' : is_end_kind k = false -> is_end_kind k' = true -> (k =? k') = false.
Proof. intros Hk Hk'. apply N.eqb_neq. intros ->. congruence. Qed.

(* what the head of a marshalled stream is not *)
Definition head_ok (tk : token) : Prop := (kind tk =? KLiteral) = false /\ is_end_kind (kind tk) = false.

Lemma concrete_target_negb t :
  negb (match ptr_base t with TAny => true | _ => false end) = concrete_target t.
Proof. unfold concrete_target. destruct (ptr_base t); reflexivity. Qed.

Lemma simple_ptr_base t : simple_ty t = true -> match ptr_base t with TAny => true | _ => false end = false.
Proof. induction t; cbn [ptr_base simple_ty]; try reflexivity; try discriminate; assumption. Qed.

Lemma simple_concrete t : simple_ty t = true -> concrete_target t = true.
Proof. intros Hs. rewrite <- concrete_target_negb, (simple_ptr_base t Hs). reflexivity. Qed.

Lemma ptr_base_struct t fs : underlying t = TStruct fs -> ptr_base t = TStruct fs.
Proof. induction t; cbn [underlying ptr_base]; try discriminate; try (intros H; exact H). exact IHt. Qed.

Lemma struct_concrete t fs : underlying t = TStruct fs -> concrete_target t = true.
Proof. intros Hut. unfold concrete_target. rewrite (ptr_base_struct t fs Hut). reflexivity. Qed.

(* the targets that reach the dispatch on the token kind: all but time.Time (its unmarshaler bridge
   comes first) and pointers (handed to the pointee) *)
Definition dispatched (ut : ty) : bool := match ut with TTime | TPtr _ => false | _ => true end.

Lemma target_cases ut : ut = TTime \/ (exists e, ut = TPtr e) \/ dispatched ut = true.
Proof. destruct ut; cbn [dispatched]; eauto. Qed.

Lemma dispatched_intro ut : ut <> TTime -> (forall e, ut <> TPtr e) -> dispatched ut = true.
Proof. intros Ht Hp. destruct (target_cases ut) as [E|[(e & E)|E]]; [contradiction|contradiction (Hp e)|exact E]. Qed.

Lemma dispatched_not_time ut : dispatched ut = true -> ut <> TTime.
Proof. intros H ->. discriminate H. Qed.

Lemma is_time_false ut : ut <> TTime -> is_time ut = false.
Proof. destruct ut; reflexivity || congruence. Qed.

(* ---- 3.2 one step over any recursive call [rec] ---- *)
Section StepOfRec.
Variable pf : bytes -> N -> option N.
Variable o : copts.
Variable R : registry.
Variable rec : rec_t.

Definition utail (t : ty) (cur : gval) (tk : token) (rest : list token) : res (gval * list token) :=
  if (kind tk =? KTypeName) && concrete_target t then rec t cur rest
  else if is_time (underlying t) then time_case tk rest
  else if kind tk =? KNil then Ok (cur, rest)
  else if is_end_kind (kind tk) then Err EUnexpEndTok
  else ptr_or_dispatch o R rec t (underlying t) cur tk rest.

Lemma ustep_tail t cur tk0 rest :
  ustep pf o R rec t cur (tk0 :: rest) = bind (conv_tok pf t tk0) (fun tk => utail t cur tk rest).
Proof. rewrite ustep_cons, concrete_target_negb. reflexivity. Qed.

Lemma conv_tok_nonlit t tk : (kind tk =? KLiteral) = false -> conv_tok pf t tk = Ok tk.
Proof. intros H. unfold conv_tok. rewrite H. reflexivity. Qed.

Lemma conv_tok_lit t s : conv_tok pf t (T KLiteral (VStr s)) = convert_literal pf t s.
Proof. reflexivity. Qed.

Lemma convert_literal_ptr t e s : underlying t = TPtr e -> convert_literal pf t s = Ok (T KLiteral (VStr s)).
Proof. intros Hu. unfold convert_literal. rewrite Hu. reflexivity. Qed.

Lemma utail_skip t cur tk rest :
  (kind tk =? KTypeName) = true -> concrete_target t = true -> utail t cur tk rest = rec t cur rest.
Proof. intros Hk Hc. unfold utail. rewrite Hk, Hc. reflexivity. Qed.

Lemma utail_noskip t cur tk rest : (kind tk = KTypeName -> concrete_target t = false) ->
  utail t cur tk rest =
  if is_time (underlying t) then time_case tk rest
  else if kind tk =? KNil then Ok (cur, rest)
  else if is_end_kind (kind tk) then Err EUnexpEndTok
  else ptr_or_dispatch o R rec t (underlying t) cur tk rest.
Proof.
  intros Htn. unfold utail. destruct (N.eqb_spec (kind tk) KTypeName) as [E|E]; [rewrite (Htn E)|]; reflexivity.
Qed.

Lemma utail_time t cur tk rest :
  underlying t = TTime -> (kind tk = KTypeName -> concrete_target t = false) -> utail t cur tk rest = time_case tk rest.
Proof. intros Hu Htn. rewrite utail_noskip, Hu by exact Htn. reflexivity. Qed.

Lemma utail_nil t cur tk rest : underlying t <> TTime -> (kind tk =? KNil) = true -> utail t cur tk rest = Ok (cur, rest).
Proof.
  intros Ht Hn. rewrite utail_noskip, (is_time_false _ Ht), Hn by (intros E; rewrite E in Hn; discriminate Hn). reflexivity.
Qed.

Lemma utail_end t cur tk rest :
  underlying t <> TTime -> is_end_kind (kind tk) = true -> utail t cur tk rest = Err EUnexpEndTok.
Proof.
  intros Ht He. rewrite utail_noskip, (is_time_false _ Ht), (end_kind_neq _ KNil He), He
    by (reflexivity || (intros E; rewrite E in He; discriminate He)).
  reflexivity.
Qed.

Lemma utail_past t cur tk rest :
  (kind tk = KTypeName -> concrete_target t = false) -> underlying t <> TTime ->
  (kind tk =? KNil) = false -> is_end_kind (kind tk) = false ->
  utail t cur tk rest = ptr_or_dispatch o R rec t (underlying t) cur tk rest.
Proof. intros Htn Ht Hn He. rewrite utail_noskip, (is_time_false _ Ht), Hn, He by exact Htn. reflexivity. Qed.

Lemma utail_ptr t e cur tk rest :
  underlying t = TPtr e -> (kind tk = KTypeName -> concrete_target t = false) ->
  (kind tk =? KNil) = false -> is_end_kind (kind tk) = false ->
  utail t cur tk rest = bind (rec e (zero e) (tk :: rest)) (fun r => Ok (GPtr (Some (fst r)), snd r)).
Proof. intros Hu Htn Hn He. rewrite utail_past, Hu; try assumption; [reflexivity|rewrite Hu; discriminate]. Qed.

Lemma ptr_or_dispatch_dispatched t ut cur tk rest : dispatched ut = true ->
  ptr_or_dispatch o R rec t ut cur tk rest = dispatch o R rec t ut cur tk rest.
Proof. intros Hd. destruct ut; reflexivity || discriminate Hd. Qed.

Lemma utail_dispatch t cur tk rest :
  dispatched (underlying t) = true -> (kind tk = KTypeName -> concrete_target t = false) ->
  (kind tk =? KNil) = false -> is_end_kind (kind tk) = false ->
  utail t cur tk rest = dispatch o R rec t (underlying t) cur tk rest.
Proof.
  intros Hd Htn Hn He. rewrite utail_past by (try assumption; apply dispatched_not_time, Hd).
  apply ptr_or_dispatch_dispatched, Hd.
Qed.

Lemma dispatch_plain t ut cur tk rest :
  plain_kind (kind tk) = true -> dispatch o R rec t ut cur tk rest = scalar_case t ut tk rest.
Proof. intros Hp. unfold dispatch. plain Hp. reflexivity. Qed.

Lemma dispatch_typename t ut cur tk rest :
  kind tk = KTypeName -> dispatch o R rec t ut cur tk rest = typename_case R rec t ut cur tk rest.
Proof. intros E. unfold dispatch. rewrite E. reflexivity. Qed.

Lemma scalar_case_plain t ut tk rest : plain_kind (kind tk) = true -> val tk <> VNone ->
  scalar_case t ut tk rest =
  match ut with
  | TAny => match any_of_token tk with Some d => Ok (GAny (Some d), rest) | None => Err EBadKind end
  | _ => bind (set_scalar t tk) (fun v => Ok (v, rest))
  end.
Proof. intros Hp Hv. unfold scalar_case. plain Hp. destruct (val tk); [contradiction|reflexivity..]. Qed.

Lemma utail_plain t cur tk rest : plain_kind (kind tk) = true -> dispatched (underlying t) = true ->
  utail t cur tk rest = scalar_case t (underlying t) tk rest.
Proof.
  intros Hp Hd. rewrite utail_dispatch, dispatch_plain; trivial.
  - intros E. rewrite E in Hp. discriminate Hp.
  - apply (plain_kind_neq _ _ Hp). reflexivity.
  - apply plain_not_end, Hp.
Qed.

Lemma utail_set_scalar t cur tk rest :
  plain_kind (kind tk) = true -> val tk <> VNone -> dispatched (underlying t) = true -> underlying t <> TAny ->
  utail t cur tk rest = bind (set_scalar t tk) (fun v => Ok (v, rest)).
Proof.
  intros Hp Hv Hd. rewrite utail_plain, scalar_case_plain by assumption.
  destruct (underlying t); intros Ha; reflexivity || congruence.
Qed.

(* a round of each loop on a head token that is not its end marker; on the end marker the loop returns by
   computation *)
Lemma arr_loop_step g et items idx ts tk tl : ts = tk :: tl -> (kind tk =? KArrayEnd) = false ->
  arr_loop rec (S g) et items idx ts =
  if Nat.leb (length items) idx then Err ETooMany
  else bind (rec et (nth idx items (zero et)) ts) (fun r =>
       arr_loop rec g et (set_nth idx (fst r) items) (S idx) (snd r)).
Proof. intros -> H. cbn [arr_loop]. rewrite H. reflexivity. Qed.

Lemma slice_loop_step g et acc ts tk tl : ts = tk :: tl -> (kind tk =? KArrayEnd) = false ->
  slice_loop rec (S g) et acc ts =
  bind (rec et (zero et) ts) (fun r => slice_loop rec g et (acc ++ [fst r]) (snd r)).
Proof. intros -> H. cbn [slice_loop]. rewrite H. reflexivity. Qed.

Lemma struct_loop_step g fs depr vals ts tk tl : ts = tk :: tl -> (kind tk =? KObjectEnd) = false ->
  struct_loop o rec (S g) fs depr vals ts =
  bind (rec TString (GStr []) ts) (fun nr =>
    let name := match fst nr with GStr s => s | _ => [] end in
    match find_field name fs 0 with
    | Some (i, ft) =>
        bind (rec ft (nth i vals (zero ft)) (snd nr)) (fun r =>
        struct_loop o rec g fs depr (set_nth i (fst r) vals) (snd r))
    | None =>
        if strict o && negb (existsb (bytes_eqb name) depr) then Err EUnknownField
        else bind (skip_value 0 (snd nr)) (fun rest' => struct_loop o rec g fs depr vals rest')
    end).
Proof. intros -> H. cbn [struct_loop]. rewrite H. reflexivity. Qed.

Lemma newstruct_loop_step g fs vals ts tk tl : ts = tk :: tl -> (kind tk =? KObjectEnd) = false ->
  newstruct_loop rec (S g) fs vals ts =
  bind (rec TString (GStr []) ts) (fun nr =>
    let name := match fst nr with GStr s => s | _ => [] end in
    if negb (is_exported_ident name) then Err EBadField
    else if existsb (fun fd => bytes_eqb (fname fd) name) fs then Err EDupField
    else bind (rec TAny (GAny None) (snd nr)) (fun r =>
         match fst r with
         | GAny (Some (vt, v)) => newstruct_loop rec g (fs ++ [(name, true, vt)]) (vals ++ [v]) (snd r)
         | _ => Err EEnd
         end)).
Proof. intros -> H. cbn [newstruct_loop]. rewrite H. reflexivity. Qed.

Lemma map_loop_step g kt vt isnil m ts tk tl : ts = tk :: tl -> (kind tk =? KMapEnd) = false ->
  map_loop rec (S g) kt vt isnil m ts =
  bind (rec kt (zero kt) ts) (fun kr =>
    let key := iface_key kt (fst kr) in
    if negb (comparable_val key) then Err EBadMapKey
    else bind (rec vt (zero vt) (snd kr)) (fun vr => map_loop rec g kt vt false (map_set key (fst vr) m) (snd vr))).
Proof. intros -> H. cbn [map_loop]. rewrite H. reflexivity. Qed.

Lemma genmap_loop_step g m ts tk tl : ts = tk :: tl -> (kind tk =? KMapEnd) = false ->
  genmap_loop rec (S g) m ts =
  bind (rec TAny (GAny None) ts) (fun kr =>
    let key := to_comparable (fst kr) in
    match key with
    | GAny None => Err EBadMapKey
    | GAny (Some (kt, kv)) =>
        if negb (comparable_ty kt) then Err EBadMapKey
        else if match kv with GF64 b => f64_is_nan b | GF32 b => f32_is_nan b | _ => false end then Err EBadMapKey
        else bind (rec TAny (GAny None) (snd kr)) (fun vr => genmap_loop rec g (map_set key (fst vr) m) (snd vr))
    | _ => Err EOther
    end).
Proof. intros -> H. cbn [genmap_loop]. rewrite H. reflexivity. Qed.

Lemma tuple_loop_step g outs tys vals ts tk tl : ts = tk :: tl -> (kind tk =? KTupleEnd) = false ->
  tuple_loop rec (S g) outs tys vals ts =
  match outs with
  | ot :: outs' =>
      bind (rec ot (zero ot) ts) (fun r => tuple_loop rec g outs' (tys ++ [ot]) (vals ++ [fst r]) (snd r))
  | [] =>
      bind (rec TAny (GAny None) ts) (fun r =>
      tuple_loop rec g [] (tys ++ [dyn_ty (fst r)]) (vals ++ [dyn_val (fst r)]) (snd r))
  end.
Proof. intros -> H. cbn [tuple_loop]. rewrite H. reflexivity. Qed.

End StepOfRec.

Section FieldRound.
Variable o : copts.
Variable rec : rec_t.
Hypothesis Hname : forall s cur rest', rec TString cur (T KString (VStr s) :: rest') = Ok (GStr s, rest').

Lemma struct_loop_known g fs depr vals name i ft rest :
  find_field name fs 0 = Some (i, ft) ->
  struct_loop o rec (S g) fs depr vals (T KString (VStr name) :: rest) =
  bind (rec ft (nth i vals (zero ft)) rest) (fun r => struct_loop o rec g fs depr (set_nth i (fst r) vals) (snd r)).
Proof.
  intros Hf. rewrite (struct_loop_step o rec g fs depr vals _ (T KString (VStr name)) _ eq_refl eq_refl), Hname. cbn [bind fst snd]. rewrite Hf. reflexivity.
Qed.

Lemma struct_loop_unknown_skipped g fs depr vals name a rest :
  strict o = false -> find_field name fs 0 = None ->
  skip_value 0 (a ++ rest) = Ok rest ->
  struct_loop o rec (S g) fs depr vals (T KString (VStr name) :: a ++ rest) = struct_loop o rec g fs depr vals rest.
Proof.
  intros Hs Hf Hsk. rewrite (struct_loop_step o rec g fs depr vals _ (T KString (VStr name)) _ eq_refl eq_refl), Hname. cbn [bind fst snd]. rewrite Hf, Hs. cbn [andb]. rewrite Hsk. reflexivity.
Qed.

Lemma struct_loop_strict_unknown g fs depr vals name rest :
  strict o = true -> find_field name fs 0 = None -> existsb (bytes_eqb name) depr = false ->
  struct_loop o rec (S g) fs depr vals (T KString (VStr name) :: rest) = Err EUnknownField.
Proof.
  intros Hs Hf Hd. rewrite (struct_loop_step o rec g fs depr vals _ (T KString (VStr name)) _ eq_refl eq_refl), Hname. cbn [bind fst snd]. rewrite Hf, Hs, Hd. reflexivity.
Qed.

Lemma struct_loop_strict_deprecated g fs depr vals name a rest :
  find_field name fs 0 = None -> existsb (bytes_eqb name) depr = true ->
  skip_value 0 (a ++ rest) = Ok rest ->
  struct_loop o rec (S g) fs depr vals (T KString (VStr name) :: a ++ rest) = struct_loop o rec g fs depr vals rest.
Proof.
  intros Hf Hd Hsk. rewrite (struct_loop_step o rec g fs depr vals _ (T KString (VStr name)) _ eq_refl eq_refl), Hname. cbn [bind fst snd]. rewrite Hf, Hd. cbn [negb]. rewrite andb_false_r.
  rewrite Hsk. reflexivity.
Qed.

End FieldRound.

(* ---- 3.3 one step of [unm] ---- *)
Section StepOfUnm.
Variable pf : bytes -> N -> option N.
Variable o : copts.
Variable R : registry.

Lemma unm_tail f t cur tk0 rest :
  unm pf (S f) o R t cur (tk0 :: rest) =
  bind (conv_tok pf t tk0) (fun tk => utail o R (unm pf f o R) t cur tk rest).
Proof. rewrite unm_S. apply ustep_tail. Qed.

Lemma unm_head f t cur tk rest : (kind tk =? KLiteral) = false ->
  unm pf (S f) o R t cur (tk :: rest) = utail o R (unm pf f o R) t cur tk rest.
Proof. intros H. rewrite unm_tail, conv_tok_nonlit by exact H. reflexivity. Qed.

Lemma unm_skip f t cur tk rest : (kind tk =? KTypeName) = true -> concrete_target t = true ->
  unm pf (S f) o R t cur (tk :: rest) = unm pf f o R t cur rest.
Proof.
  intros Hk Hc. rewrite unm_head; [apply utail_skip; assumption|].
  apply N.eqb_eq in Hk. rewrite Hk. reflexivity.
Qed.

(* a pointer target allocates and hands the token on, a literal as it stands *)
Lemma unm_ptr f t e cur tk rest :
  underlying t = TPtr e -> conv_tok pf t tk = Ok tk -> (kind tk = KTypeName -> concrete_target t = false) ->
  (kind tk =? KNil) = false -> is_end_kind (kind tk) = false ->
  unm pf (S f) o R t cur (tk :: rest) =
  bind (unm pf f o R e (zero e) (tk :: rest)) (fun r => Ok (GPtr (Some (fst r)), snd r)).
Proof. intros Hu Hc Htn Hn He. rewrite unm_tail, Hc. cbn [bind]. apply utail_ptr; assumption. Qed.

Lemma unm_ptr_head_ok f t e cur tk rest :
  underlying t = TPtr e -> head_ok tk -> (kind tk =? KTypeName) = false -> kind tk <> KNil ->
  unm pf (S f) o R t cur (tk :: rest) =
  bind (unm pf f o R e (zero e) (tk :: rest)) (fun r => Ok (GPtr (Some (fst r)), snd r)).
Proof.
  intros Hut [Hl He] Ht Hn.
  apply unm_ptr; [exact Hut|apply conv_tok_nonlit, Hl|intros E; rewrite E in Ht; discriminate Ht|apply N.eqb_neq, Hn|exact He].
Qed.

Fixpoint ptr_ty_n (n : nat) (t : ty) : ty := match n with O => t | S k => TPtr (ptr_ty_n k t) end.

Lemma unm_ptr_chain t0 tk rest :
  head_ok tk -> (kind tk =? KTypeName) = false -> kind tk <> KNil ->
  forall f n t cur, (f <= n)%nat -> underlying t = underlying (ptr_ty_n n t0) ->
  unm pf f o R t cur (tk :: rest) = OutOfFuel.
Proof.
  intros Hh Htn Hnil. induction f as [|f IH]; intros n t cur Hf Hut; [apply unm_O|].
  destruct n as [|n]; [lia|].
  rewrite (unm_ptr_head_ok f t _ cur tk rest Hut Hh Htn Hnil).
  rewrite (IH n) by (reflexivity || lia). reflexivity.
Qed.

Lemma unm_dispatch f t cur tk rest :
  (kind tk =? KLiteral) = false -> dispatched (underlying t) = true ->
  (kind tk = KTypeName -> concrete_target t = false) ->
  (kind tk =? KNil) = false -> is_end_kind (kind tk) = false ->
  unm pf (S f) o R t cur (tk :: rest) = dispatch o R (unm pf f o R) t (underlying t) cur tk rest.
Proof. intros H1 H2 H3 H4 H5. rewrite unm_head by exact H1. apply utail_dispatch; assumption. Qed.

Lemma unm_value_kind f t cur tk rest :
  existsb (N.eqb (kind tk)) [KNaN; KBytes; KArray; KObject; KMap; KTuple] = true -> dispatched (underlying t) = true ->
  unm pf (S f) o R t cur (tk :: rest) = dispatch o R (unm pf f o R) t (underlying t) cur tk rest.
Proof.
  intros Hk Hd. apply existsb_exists in Hk. destruct Hk as (k & Hin & E). apply N.eqb_eq in E.
  cbn [In] in Hin.
  apply unm_dispatch; try exact Hd; rewrite E; repeat (destruct Hin as [<-|Hin]); reflexivity || discriminate || contradiction.
Qed.

Lemma unm_plain f t cur tk rest : plain_kind (kind tk) = true -> dispatched (underlying t) = true ->
  unm pf (S f) o R t cur (tk :: rest) = scalar_case t (underlying t) tk rest.
Proof. intros Hp Hd. rewrite unm_head by exact (plain_kind_neq _ KLiteral Hp eq_refl). apply utail_plain; assumption. Qed.

Lemma unm_bytes_tok f t cur tk rest : kind tk = KBytes -> dispatched (underlying t) = true ->
  unm pf (S f) o R t cur (tk :: rest) = bytes_case t (underlying t) cur tk rest.
Proof. intros E Hd. rewrite unm_value_kind by (rewrite ?E; reflexivity || assumption). unfold dispatch. rewrite E. reflexivity. Qed.

Lemma unm_array_tok f t cur tk rest : kind tk = KArray -> dispatched (underlying t) = true ->
  unm pf (S f) o R t cur (tk :: rest) = array_case (unm pf f o R) t (underlying t) cur KArray rest.
Proof. intros E Hd. rewrite unm_value_kind by (rewrite ?E; reflexivity || assumption). unfold dispatch. rewrite E. reflexivity. Qed.

Lemma unm_object_tok f t cur tk rest : kind tk = KObject -> dispatched (underlying t) = true ->
  unm pf (S f) o R t cur (tk :: rest) = object_case o (unm pf f o R) t (underlying t) cur KObject rest.
Proof. intros E Hd. rewrite unm_value_kind by (rewrite ?E; reflexivity || assumption). unfold dispatch. rewrite E. reflexivity. Qed.

Lemma unm_map_tok f t cur tk rest : kind tk = KMap -> dispatched (underlying t) = true ->
  unm pf (S f) o R t cur (tk :: rest) = map_case (unm pf f o R) t (underlying t) cur KMap rest.
Proof. intros E Hd. rewrite unm_value_kind by (rewrite ?E; reflexivity || assumption). unfold dispatch. rewrite E. reflexivity. Qed.

Lemma unm_tuple_tok f t cur tk rest : kind tk = KTuple -> dispatched (underlying t) = true ->
  unm pf (S f) o R t cur (tk :: rest) = tuple_case (unm pf f o R) t (underlying t) KTuple rest.
Proof. intros E Hd. rewrite unm_value_kind by (rewrite ?E; reflexivity || assumption). unfold dispatch. rewrite E. reflexivity. Qed.

End StepOfUnm.

(* ---- 3.4 C05: Nil, end markers, end of stream, scalar kind mismatch ---- *)

Section HeadToken.
Variable pf : bytes -> N -> option N.
Variable o : copts.
Variable R : registry.

Theorem nil_leaves_untouched f t cur rest :
  underlying t <> TTime ->
  unm pf (S f) o R t cur (T KNil VNone :: rest) = Ok (cur, rest).
Proof. intros Hnt. rewrite unm_head by reflexivity. apply utail_nil; [exact Hnt|reflexivity]. Qed.

Theorem empty_is_eof f t cur :
  underlying t <> TTime -> unm pf (S f) o R t cur [] = Err EEnd.
Proof.
  intros Hnt. rewrite unm_S. unfold ustep. destruct (underlying t); try congruence; reflexivity.
Qed.

Theorem empty_time_mismatch f t cur :
  underlying t = TTime -> unm pf (S f) o R t cur [] = Err (EMismatch KInvalid 24).
Proof. intros Ht. rewrite unm_S. unfold ustep. rewrite Ht. reflexivity. Qed.

Theorem end_token_rejected f t cur tk rest :
  underlying t <> TTime -> is_end_kind (kind tk) = true ->
  unm pf (S f) o R t cur (tk :: rest) = Err EUnexpEndTok.
Proof.
  intros Hnt Hend. rewrite unm_head by exact (end_kind_neq _ KLiteral Hend eq_refl). apply utail_end; assumption.
Qed.

(* against a time.Time target an end marker is a kind mismatch (the BinaryUnmarshaler bridge is
   tried before anything else) *)
Theorem end_token_time f t cur tk rest :
  underlying t = TTime -> is_end_kind (kind tk) = true ->
  unm pf (S f) o R t cur (tk :: rest) = Err (EMismatch (kind tk) 24).
Proof.
  intros Ht Hend. rewrite unm_head by exact (end_kind_neq _ KLiteral Hend eq_refl).
  rewrite utail_time; [|exact Ht|intros E; rewrite E in Hend; discriminate Hend].
  unfold time_case. rewrite (end_kind_neq _ KString Hend eq_refl). reflexivity.
Qed.

Lemma unm_ok_not_end f t cur tk rest x :
  unm pf f o R t cur (tk :: rest) = Ok x -> is_end_kind (kind tk) = false.
Proof.
  destruct f as [|f]; [rewrite unm_O; discriminate|]. intros H.
  destruct (is_end_kind (kind tk)) eqn:He; [|reflexivity]. exfalso.
  destruct (target_cases (underlying t)) as [Ht|Ht].
  - rewrite (end_token_time f t cur tk rest Ht He) in H. discriminate.
  - rewrite (end_token_rejected f t cur tk rest) in H; [discriminate| |exact He].
    destruct Ht as [(e & ->)|Hd]; [discriminate|apply dispatched_not_time, Hd].
Qed.

Lemma unm_ok_literal f t cur tk rest x :
  unm pf f o R t cur (tk :: rest) = Ok x -> (kind tk =? KLiteral) = true -> exists s, tk = T KLiteral (VStr s).
Proof.
  destruct f as [|f]; [rewrite unm_O; discriminate|]. rewrite unm_tail. intros H Hl.
  apply N.eqb_eq in Hl. destruct tk as [k y]. cbn [kind] in Hl. subst k.
  destruct y; try discriminate. eexists; reflexivity.
Qed.

Definition is_scalar_ty (t : ty) : bool :=
  match t with
  | TBool | TInt _ | TUint _ | TUintptr | TF32 | TF64 | TString => true
  | _ => false
  end.

Definition scalar_tok (tk : token) : bool :=
  kind_shape (kind tk) (val tk) &&
  match val tk with
  | VBool _ | VI _ _ | VU _ _ | VPtr _ | VF32 _ | VF64 _ => true
  | VStr _ => kind tk =? KString
  | _ => false
  end.

Definition tok_matches (t : ty) (tk : token) : bool :=
  match val tk, underlying t with
  | VBool _, TBool => true
  | VI w _, TInt w' => width_eqb w w'
  | VU w _, TUint w' => width_eqb w w'
  | VPtr _, TUintptr => true
  | VF32 _, TF32 => true
  | VF64 _, TF64 => true
  | VStr _, TString => kind tk =? KString
  | _, _ => false
  end.

Definition scalar_kinds : list N :=
  [KBool; KString; KInt; KInt8; KInt16; KInt32; KInt64; KUint; KUint8; KUint16; KUint32; KUint64;
   KPointer; KFloat32; KFloat64].

Lemma scalar_tok_kind tk : scalar_tok tk = true -> existsb (N.eqb (kind tk)) scalar_kinds = true /\ val tk <> VNone.
Proof.
  unfold scalar_tok. destruct tk as [k v]. cbn [kind val]. intros H.
  apply andb_true_iff in H. destruct H as [Hs Hv].
  split; [|destruct v; discriminate].
  destruct v as [|b|w z|w n|n|b|b|s|s]; try discriminate; cbn [kind_shape] in Hs;
    try destruct w; try (apply N.eqb_eq in Hs; subst k; reflexivity).
  apply N.eqb_eq in Hv. subst k. reflexivity.
Qed.

Lemma scalar_kind_plain k : existsb (N.eqb k) scalar_kinds = true -> plain_kind k = true.
Proof.
  intros H. apply existsb_exists in H. destruct H as (k' & Hin & E). apply N.eqb_eq in E. subst k'.
  unfold scalar_kinds in Hin. cbn [In] in Hin. repeat (destruct Hin as [<-|Hin]); reflexivity || contradiction.
Qed.

Lemma scalar_tok_plain tk : scalar_tok tk = true -> plain_kind (kind tk) = true /\ val tk <> VNone.
Proof. intros H. destruct (scalar_tok_kind tk H) as [Hk Hv]. split; [apply scalar_kind_plain, Hk|exact Hv]. Qed.

Lemma scalar_tok_nonlit tk : scalar_tok tk = true -> (kind tk =? KLiteral) = false.
Proof. intros H. exact (plain_kind_neq _ KLiteral (proj1 (scalar_tok_plain tk H)) eq_refl). Qed.

Lemma convert_literal_cases t s tk : convert_literal pf t s = Ok tk ->
  (exists e, underlying t = TPtr e /\ tk = T KLiteral (VStr s)) \/
  ((forall e, underlying t <> TPtr e) /\ scalar_tok tk = true).
Proof.
  unfold convert_literal. destruct (underlying t); try discriminate.
  - destruct (parse_bool s); [|discriminate]. intros [= <-]. right. split; [discriminate|reflexivity].
  - destruct (parse_int _ s); [|discriminate]. intros [= <-]. right. split; [discriminate|]. destruct w; reflexivity.
  - destruct (parse_uint _ s); [|discriminate]. intros [= <-]. right. split; [discriminate|]. destruct w; reflexivity.
  - destruct (parse_uint _ s); [|discriminate]. intros [= <-]. right. split; [discriminate|reflexivity].
  - destruct (pf s 32); [|discriminate]. intros [= <-]. right. split; [discriminate|reflexivity].
  - destruct (pf s 64); [|discriminate]. intros [= <-]. right. split; [discriminate|reflexivity].
  - intros [= <-]. right. split; [discriminate|reflexivity].
  - intros [= <-]. left. eexists. split; reflexivity.
Qed.

Lemma scalar_ty_dispatched ut : is_scalar_ty ut = true -> dispatched ut = true /\ ut <> TAny.
Proof. destruct ut; try discriminate; split; reflexivity || discriminate. Qed.

Theorem scalar_by_set_scalar f t cur tk rest :
  is_scalar_ty (underlying t) = true -> scalar_tok tk = true ->
  unm pf (S f) o R t cur (tk :: rest) = bind (set_scalar t tk) (fun v => Ok (v, rest)).
Proof.
  intros Ht Htk. destruct (scalar_tok_plain tk Htk) as [Hp Hv]. destruct (scalar_ty_dispatched _ Ht) as [Hd Ha].
  rewrite unm_head by exact (plain_kind_neq _ KLiteral Hp eq_refl). apply utail_set_scalar; assumption.
Qed.

Corollary unm_scalar f t cur tk rest v :
  is_scalar_ty (underlying t) = true -> scalar_tok tk = true -> set_scalar t tk = Ok v ->
  unm pf (S f) o R t cur (tk :: rest) = Ok (v, rest).
Proof. intros Ht Htk Hv. rewrite scalar_by_set_scalar, Hv by assumption. reflexivity. Qed.

Lemma set_scalar_matches t tk :
  set_scalar t tk = if tok_matches t tk
                    then match any_of_token tk with Some (_, v) => Ok v | None => Err EOther end
                    else Err (EMismatch (kind tk) (rk_of t)).
Proof.
  unfold set_scalar, tok_matches, any_of_token.
  destruct (val tk); destruct (underlying t); try reflexivity;
    match goal with |- (if ?c then _ else _) = _ => destruct c; reflexivity end.
Qed.

Theorem scalar_mismatch f t cur tk rest :
  is_scalar_ty (underlying t) = true -> scalar_tok tk = true -> tok_matches t tk = false ->
  unm pf (S f) o R t cur (tk :: rest) = Err (EMismatch (kind tk) (rk_of t)).
Proof.
  intros Ht Htk Hm. rewrite scalar_by_set_scalar by assumption.
  rewrite set_scalar_matches, Hm. reflexivity.
Qed.

Theorem scalar_match f t cur tk rest :
  is_scalar_ty (underlying t) = true -> scalar_tok tk = true -> tok_matches t tk = true ->
  exists v, any_of_token tk = Some (underlying t, v) /\ unm pf (S f) o R t cur (tk :: rest) = Ok (v, rest).
Proof.
  intros Ht Htk Hm. rewrite scalar_by_set_scalar by assumption.
  rewrite set_scalar_matches, Hm. unfold tok_matches in Hm. unfold any_of_token.
  destruct (val tk); destruct (underlying t); try discriminate; try (eexists; split; reflexivity).
  - destruct w, w0; try discriminate; eexists; split; reflexivity.
  - destruct w, w0; try discriminate; eexists; split; reflexivity.
Qed.

End HeadToken.

Example scalar_mismatch_ex :
  unm (fun _ _ => None) 1 default_opts [] (TNamed [77] false [] (TInt W16)) (GInt 5)
      [T KInt32 (VI W32 7); T KBool (VBool true)] = Err (EMismatch KInt32 4).
Proof.
  apply (scalar_mismatch (fun _ _ => None) default_opts [] 0); reflexivity.
Qed.

(* ---- 3.5 one step on the tokens [marshal] writes ---- *)
Section OnToken.
Variable pf : bytes -> N -> option N.
Variable o : copts.
Variable R : registry.

Ltac scalar_step Hut :=
  apply unm_scalar; [rewrite Hut; reflexivity|reflexivity|unfold set_scalar; cbn [kind val]; rewrite Hut; reflexivity].

Lemma unm_slice_step f t e cur rest :
  underlying t = TSlice e ->
  unm pf (S f) o R t cur (T KArray VNone :: rest) =
  bind (slice_loop (unm pf f o R) (S (length rest)) e (items_of_gval cur) rest) (fun r =>
    Ok (GList (is_nil_container cur && match fst r with [] => true | _ => false end) (fst r), snd r)).
Proof. intros Hut. rewrite unm_value_kind, Hut by (reflexivity || (rewrite Hut; reflexivity)). reflexivity. Qed.

Lemma unm_array_step f t k e cur rest :
  underlying t = TArray k e ->
  unm pf (S f) o R t cur (T KArray VNone :: rest) =
  bind (arr_loop (unm pf f o R) (S (length rest)) e (items_of_gval cur) 0%nat rest) (fun r => Ok (GList false (fst r), snd r)).
Proof. intros Hut. rewrite unm_value_kind, Hut by (reflexivity || (rewrite Hut; reflexivity)). reflexivity. Qed.

Lemma unm_struct_step f t fs cur rest :
  underlying t = TStruct fs ->
  unm pf (S f) o R t cur (T KObject VNone :: rest) =
  bind (struct_loop o (unm pf f o R) (S (length rest)) fs (depr_of t)
          match cur with GStruct vs => vs | _ => map (fun fd => zero (snd fd)) fs end rest)
       (fun r => Ok (GStruct (fst r), snd r)).
Proof. intros Hut. rewrite unm_value_kind, Hut by (reflexivity || (rewrite Hut; reflexivity)). reflexivity. Qed.

Lemma unm_map_step f t kt vt cur rest :
  underlying t = TMap kt vt ->
  unm pf (S f) o R t cur (T KMap VNone :: rest) =
  map_loop (unm pf f o R) (S (length rest)) kt vt
    (fst match cur with GMap n m => (n, m) | _ => (true, []) end)
    (snd match cur with GMap n m => (n, m) | _ => (true, []) end) rest.
Proof. intros Hut. rewrite unm_map_tok, Hut by (reflexivity || (rewrite Hut; reflexivity)). destruct cur; reflexivity. Qed.

Lemma unm_func_step f t outs cur rest :
  underlying t = TFunc outs ->
  unm pf (S f) o R t cur (T KTuple VNone :: rest) =
  bind (tuple_loop (unm pf f o R) (S (length rest)) outs [] [] rest) (fun r =>
    let '(outs', vals, tys, rest') := r in
    match outs' with
    | _ :: _ => Err ETooFew
    | [] =>
        if Nat.ltb 50 (length vals) then Err ETooMany
        else if Nat.eqb (length vals) (length outs) then Ok (GFunc (Some vals), rest')
        else Err EBadTuple
    end).
Proof. intros Hut. rewrite unm_tuple_tok, Hut by (reflexivity || (rewrite Hut; reflexivity)). reflexivity. Qed.

Lemma unm_any_tn f cur n rt rest :
  reg_lookup R n = Some rt ->
  unm pf (S f) o R TAny cur (T KTypeName (VStr n) :: rest) =
  bind (unm pf f o R rt (zero rt) rest) (fun r => Ok (GAny (Some (rt, fst r)), snd r)).
Proof.
  intros Hr. rewrite unm_dispatch, dispatch_typename by (reflexivity || (intros _; reflexivity)).
  unfold typename_case. cbn [underlying val]. rewrite Hr. reflexivity.
Qed.

Lemma unm_bool f t cur b rest : underlying t = TBool ->
  unm pf (S f) o R t cur (T KBool (VBool b) :: rest) = Ok (GBool b, rest).
Proof. intros Hut. scalar_step Hut. Qed.

Lemma unm_int f t w cur z rest : underlying t = TInt w ->
  unm pf (S f) o R t cur (T (kind_of_int w) (VI w z) :: rest) = Ok (GInt z, rest).
Proof.
  intros Hut. destruct w; scalar_step Hut.
Qed.

Lemma unm_uint f t w cur n rest : underlying t = TUint w ->
  unm pf (S f) o R t cur (T (kind_of_uint w) (VU w n) :: rest) = Ok (GUint n, rest).
Proof.
  intros Hut. destruct w; scalar_step Hut.
Qed.

Lemma unm_uintptr f t cur n rest : underlying t = TUintptr ->
  unm pf (S f) o R t cur (T KPointer (VPtr n) :: rest) = Ok (GUint n, rest).
Proof. intros Hut. scalar_step Hut. Qed.

Lemma unm_f32 f t cur b rest : underlying t = TF32 ->
  unm pf (S f) o R t cur (T KFloat32 (VF32 b) :: rest) = Ok (GF32 b, rest).
Proof. intros Hut. scalar_step Hut. Qed.

Lemma unm_f64 f t cur b rest : underlying t = TF64 ->
  unm pf (S f) o R t cur (T KFloat64 (VF64 b) :: rest) = Ok (GF64 b, rest).
Proof. intros Hut. scalar_step Hut. Qed.

Lemma unm_nan32 f t cur rest : underlying t = TF32 ->
  unm pf (S f) o R t cur (T KNaN VNone :: rest) = Ok (GF32 f32_nan_bits, rest).
Proof. intros Hut. rewrite unm_value_kind, Hut by (reflexivity || (rewrite Hut; reflexivity)). reflexivity. Qed.

Lemma unm_nan64 f t cur rest : underlying t = TF64 ->
  unm pf (S f) o R t cur (T KNaN VNone :: rest) = Ok (GF64 f64_nan_bits, rest).
Proof. intros Hut. rewrite unm_value_kind, Hut by (reflexivity || (rewrite Hut; reflexivity)). reflexivity. Qed.

Lemma unm_string f t cur s rest : underlying t = TString ->
  unm pf (S f) o R t cur (T KString (VStr s) :: rest) = Ok (GStr s, rest).
Proof. intros Hut. scalar_step Hut. Qed.

(* a field name or a map key of kind string, read with any fuel but none *)
Lemma unm_name f cur s rest :
  unm pf (S f) o R TString cur (T KString (VStr s) :: rest) = Ok (GStr s, rest).
Proof. apply unm_string. reflexivity. Qed.

Lemma unm_name_fuel f : (1 <= f)%nat -> forall s cur rest',
  unm pf f o R TString cur (T KString (VStr s) :: rest') = Ok (GStr s, rest').
Proof. intros Hf s cur rest'. destruct f as [|f]; [inversion Hf|]. apply unm_name. Qed.

Lemma unm_bytes f t cur s rest : underlying t = TBytes ->
  unm pf (S f) o R t cur (T KBytes (VBytes s) :: rest) = Ok (GBytes false s, rest).
Proof. intros Hut. rewrite unm_value_kind, Hut by (reflexivity || (rewrite Hut; reflexivity)). reflexivity. Qed.

Lemma unm_bytearray f t k cur s rest : underlying t = TByteArray k -> (length s <= k)%nat ->
  unm pf (S f) o R t cur (T KBytes (VBytes s) :: rest) =
  Ok (GBytes false (firstn k s ++ skipn (length s) (bytes_of_gval cur)), rest).
Proof.
  intros Hut Hle. apply Nat.ltb_ge in Hle. rewrite unm_bytes_tok, Hut by (reflexivity || (rewrite Hut; reflexivity)).
  unfold bytes_case. cbn [val]. rewrite Hle. reflexivity.
Qed.

Lemma unm_time f t cur s rest : underlying t = TTime -> valid_time_enc s = true ->
  unm pf (S f) o R t cur (T KString (VStr s) :: rest) = Ok (GTime s, rest).
Proof.
  intros Hut Hv. rewrite unm_head, utail_time by (reflexivity || exact Hut || (intros E; discriminate E)).
  unfold time_case. cbn [kind val]. rewrite Hv. reflexivity.
Qed.

End OnToken.

(* ==== 4. The schema-less target ==== *)
Definition any_res (r : res (gval * list token)) : Prop := forall x, r = Ok x -> exists d, fst x = GAny d.

Lemma any_res_ok d rest : any_res (Ok (GAny d, rest)).
Proof. intros x H. injection H as <-. exists d. reflexivity. Qed.

Lemma any_res_bind A (r : res A) k : (forall a, any_res (k a)) -> any_res (bind r k).
Proof. intros Hk x H. apply bind_ok in H. destruct H as (a & _ & H). exact (Hk a x H). Qed.

Definition rec_any (rec : rec_t) : Prop := forall ts, any_res (rec TAny (GAny None) ts).

Lemma newstruct_loop_any_res (rec : rec_t) : forall g fs vals ts, any_res (newstruct_loop rec g fs vals ts).
Proof.
  induction g as [|g IH]; intros fs vals ts; [discriminate|].
  cbn [newstruct_loop]. destruct ts as [|tk r]; [discriminate|].
  destruct (kind tk =? KObjectEnd); [apply any_res_ok|].
  apply any_res_bind. intros nr. cbv zeta.
  destruct (negb _); [discriminate|]. destruct (existsb _ fs); [discriminate|].
  apply any_res_bind. intros vr.
  destruct (fst vr) as [| | | | | | | | | | |[[vt v]|]| |]; try discriminate. apply IH.
Qed.

Lemma genmap_loop_any_res (rec : rec_t) : forall g m ts, any_res (genmap_loop rec g m ts).
Proof.
  induction g as [|g IH]; intros m ts; [discriminate|].
  cbn [genmap_loop]. destruct ts as [|tk r]; [discriminate|].
  destruct (kind tk =? KMapEnd); [apply any_res_ok|].
  apply any_res_bind. intros kr. cbv zeta.
  destruct (to_comparable (fst kr)) as [| | | | | | | | | | |[[kt kv]|]| |]; try discriminate.
  destruct (negb _); [discriminate|]. destruct (match kv with GF64 _ => _ | _ => _ end); [discriminate|].
  apply any_res_bind. intros vr. apply IH.
Qed.

Lemma dispatch_any o R (rec : rec_t) : rec_any rec ->
  forall tk rest, any_res (dispatch o R rec TAny TAny (GAny None) tk rest).
Proof.
  intros Hrec tk rest. unfold dispatch.
  destruct (kind tk =? KNaN); [apply any_res_ok|].
  destruct (kind tk =? KBytes).
  { unfold bytes_case. destruct (val tk); try discriminate. apply any_res_ok. }
  destruct (kind tk =? KArray).
  { apply any_res_bind. intros a. apply any_res_ok. }
  destruct (kind tk =? KObject); [apply newstruct_loop_any_res|].
  destruct (kind tk =? KMap); [apply genmap_loop_any_res|].
  destruct (kind tk =? KTuple).
  { apply any_res_bind. intros [[[outs' vals] tys] rest'].
    destruct (Nat.ltb 50 (length vals)); [discriminate|apply any_res_ok]. }
  destruct (kind tk =? KTypeName).
  { unfold typename_case. destruct (val tk); try apply Hrec.
    destruct (reg_lookup R _); [|apply Hrec]. apply any_res_bind. intros a. apply any_res_ok. }
  unfold scalar_case, any_of_token.
  destruct (val tk); try discriminate; (destruct (_ || _); [discriminate|apply any_res_ok]).
Qed.

Lemma ustep_any pf o R (rec : rec_t) : rec_any rec -> rec_any (ustep pf o R rec).
Proof.
  intros Hrec [|tk0 rest]; [discriminate|].
  rewrite ustep_tail. apply any_res_bind. intros tk. rewrite utail_noskip by (intros _; reflexivity).
  cbn [underlying is_time]. destruct (kind tk =? KNil); [apply any_res_ok|].
  destruct (is_end_kind (kind tk)); [discriminate|]. apply dispatch_any, Hrec.
Qed.

Lemma unm_any pf o R : forall f, rec_any (unm pf f o R).
Proof.
  induction f as [|f IH]; intros ts; [rewrite unm_O; discriminate|].
  rewrite unm_S. apply ustep_any, IH.
Qed.

(* ==== 5. C01: round trip on the first universe ==== *)

Lemma set_nth_app {A} (pre : list A) x y r : set_nth (length pre) x (pre ++ y :: r) = pre ++ x :: r.
Proof. induction pre as [|p pre IH]; cbn [length app set_nth]; [reflexivity|]. f_equal. exact IH. Qed.

Lemma nth_app_here {A} (pre : list A) y r d : nth (length pre) (pre ++ y :: r) d = y.
Proof. apply nth_middle. Qed.

Definition elem_ty (t : ty) : ty := match underlying t with TArray _ e | TSlice e => e | _ => TAny end.
Definition fields_of (t : ty) : list (bytes * bool * ty) := match underlying t with TStruct fs => fs | _ => [] end.
Definition pointee_ty (t : ty) : ty := match underlying t with TPtr e => e | _ => TAny end.

Lemma marshal_GList o t n items :
  marshal o t (GList n items) =
  bind (bind (marshal_list o (elem_ty t) items) (fun body => Ok (T KArray VNone :: body ++ [T KArrayEnd VNone])))
       (fun ts => Ok (reg_prefix t ++ ts)).
Proof. reflexivity. Qed.

Lemma marshal_GStruct o t vals :
  marshal o t (GStruct vals) =
  bind (bind (marshal_fields o vals (fields_of t)) (fun body => Ok (T KObject VNone :: body ++ [T KObjectEnd VNone])))
       (fun ts => Ok (reg_prefix t ++ ts)).
Proof. reflexivity. Qed.

Lemma marshal_GPtr o t x :
  marshal o t (GPtr (Some x)) = bind (marshal o (pointee_ty t) x) (fun ts => Ok (reg_prefix t ++ ts)).
Proof. reflexivity. Qed.

Lemma marshal_list_ok o t n items ts : marshal o t (GList n items) = Ok ts ->
  exists body, marshal_list o (elem_ty t) items = Ok body /\
               ts = reg_prefix t ++ T KArray VNone :: body ++ [T KArrayEnd VNone].
Proof.
  rewrite marshal_GList. intros H. apply bind_ok in H. destruct H as (ts0 & H & [= <-]).
  apply bind_ok in H. destruct H as (body & H & [= <-]). exists body. split; [exact H|reflexivity].
Qed.

Lemma marshal_struct_ok o t vals ts : marshal o t (GStruct vals) = Ok ts ->
  exists body, marshal_fields o vals (fields_of t) = Ok body /\
               ts = reg_prefix t ++ T KObject VNone :: body ++ [T KObjectEnd VNone].
Proof.
  rewrite marshal_GStruct. intros H. apply bind_ok in H. destruct H as (ts0 & H & [= <-]).
  apply bind_ok in H. destruct H as (body & H & [= <-]). exists body. split; [exact H|reflexivity].
Qed.

Lemma marshal_ptr_ok o t x ts : marshal o t (GPtr (Some x)) = Ok ts ->
  exists a, marshal o (pointee_ty t) x = Ok a /\ ts = reg_prefix t ++ a.
Proof.
  rewrite marshal_GPtr. intros H. apply bind_ok in H. destruct H as (a & H & [= <-]).
  exists a. split; [exact H|reflexivity].
Qed.

Definition nfields : list gval -> list (bytes * bool * ty) -> list gval :=
  fix go (l : list gval) (f : list (bytes * bool * ty)) : list gval :=
    match l, f with
    | x :: r, fd :: fr => (if fexported fd then normal (snd fd) x else zero (snd fd)) :: go r fr
    | _, _ => []
    end.

Definition names_nodup : list (bytes * bool * ty) -> bool :=
  fix nodup (l : list (bytes * bool * ty)) : bool :=
    match l with
    | [] => true
    | f :: r => negb (existsb (fun g => bytes_eqb (fname f) (fname g)) r) && nodup r
    end.

Lemma names_nodup_cons f l :
  names_nodup (f :: l) = negb (existsb (fun g => bytes_eqb (fname f) (fname g)) l) && names_nodup l.
Proof. reflexivity. Qed.

Lemma normal_list t n items :
  normal t (GList n items) =
  match underlying t with
  | TArray _ e => GList false (map (normal e) items)
  | TSlice e => GList (match items with [] => true | _ => false end) (map (normal e) items)
  | _ => GList n items
  end.
Proof. reflexivity. Qed.

Lemma normal_struct t vals :
  normal t (GStruct vals) = match underlying t with TStruct fs => GStruct (nfields vals fs) | _ => GStruct vals end.
Proof. reflexivity. Qed.

(* [normal_w]: what a zero target holds after reading the stream of v from a writer with skip_empty = se:
   as [normal], but a field the writer did not emit ([emitted]) keeps the zero value of its type, at every depth *)
Fixpoint normal_w (se : bool) (t : ty) (v : gval) {struct v} : gval :=
  match v with
  | GF32 b => if f32_is_nan b then GF32 f32_nan_bits else v
  | GF64 b => if f64_is_nan b then GF64 f64_nan_bits else v
  | GBytes isnil s => GBytes false s
  | GList isnil items =>
      match underlying t with
      | TArray _ e => GList false (map (normal_w se e) items)
      | TSlice e => GList (match items with [] => true | _ => false end) (map (normal_w se e) items)
      | _ => v
      end
  | GStruct vals =>
      match underlying t with
      | TStruct fs =>
          GStruct ((fix go (l : list gval) (f : list (bytes * bool * ty)) : list gval :=
                      match l, f with
                      | x :: r, fd :: fr =>
                          (if emitted se fd x then normal_w se (snd fd) x else zero (snd fd)) :: go r fr
                      | _, _ => []
                      end) vals fs)
      | _ => v
      end
  | GPtr (Some x) => match underlying t with TPtr e => GPtr (Some (normal_w se e x)) | _ => v end
  | _ => v
  end.

Definition nfields_w (se : bool) : list gval -> list (bytes * bool * ty) -> list gval :=
  fix go (l : list gval) (f : list (bytes * bool * ty)) : list gval :=
    match l, f with
    | x :: r, fd :: fr => (if emitted se fd x then normal_w se (snd fd) x else zero (snd fd)) :: go r fr
    | _, _ => []
    end.

Lemma normal_w_list se t n items :
  normal_w se t (GList n items) =
  match underlying t with
  | TArray _ e => GList false (map (normal_w se e) items)
  | TSlice e => GList (match items with [] => true | _ => false end) (map (normal_w se e) items)
  | _ => GList n items
  end.
Proof. reflexivity. Qed.

Lemma normal_w_struct se t vals :
  normal_w se t (GStruct vals) =
  match underlying t with TStruct fs => GStruct (nfields_w se vals fs) | _ => GStruct vals end.
Proof. reflexivity. Qed.

Lemma nfields_w_cons se x l fd fs :
  nfields_w se (x :: l) (fd :: fs) =
  (if emitted se fd x then normal_w se (snd fd) x else zero (snd fd)) :: nfields_w se l fs.
Proof. reflexivity. Qed.

Lemma nfields_cons x l fd fs :
  nfields (x :: l) (fd :: fs) = (if fexported fd then normal (snd fd) x else zero (snd fd)) :: nfields l fs.
Proof. reflexivity. Qed.

Lemma normal_w_false : forall v t, normal_w false t v = normal t v.
Proof.
  induction v as [b|z|n|b|b|s|n s|n l IH|n es|l IH| |x IH|d|r|e] using gval_ind2; intros t; try reflexivity.
  - rewrite normal_w_list, normal_list.
    assert (E : forall e, map (normal_w false e) l = map (normal e) l).
    { intros e. induction IH as [|x l Hx _ IHl]; [reflexivity|]. cbn [map]. rewrite Hx, IHl. reflexivity. }
    destruct (underlying t); try reflexivity; rewrite E; reflexivity.
  - rewrite normal_w_struct, normal_struct. destruct (underlying t) as [| | | | | | | | | | | |fs| | | | |]; try reflexivity.
    f_equal. revert fs. induction IH as [|x l Hx _ IHl]; intros [|fd fs]; try reflexivity.
    rewrite nfields_w_cons, nfields_cons, emitted_false, Hx, IHl. reflexivity.
  - cbn [normal_w normal]. destruct (underlying t); try reflexivity. rewrite IH. reflexivity.
Qed.

Lemma wf_ty_struct fs :
  wf_ty (TStruct fs) = forallb (fun f => wf_bytesb (fname f) && wf_ty (snd f)) fs && names_nodup fs.
Proof. reflexivity. Qed.

Lemma zero_underlying t : zero t = zero (underlying t).
Proof. induction t; cbn [zero underlying]; try reflexivity. assumption. Qed.

Lemma simple_underlying t : simple_ty t = true -> simple_ty (underlying t) = true.
Proof. induction t; cbn [underlying]; try (intros H; exact H). cbn [simple_ty]. exact IHt. Qed.
Lemma reg_prefix_cases t : reg_prefix t = [] \/ exists n, reg_prefix t = [T KTypeName (VStr n)].
Proof. destruct t; try (left; reflexivity). destruct reg; [right; eexists; reflexivity|left; reflexivity]. Qed.

(* [leadl ts] is the run of TypeName tokens [ts] begins with, [strip ts] what follows it.  A concrete target
   skips TypeName tokens before it dereferences a pointer (unmarshal.go: "a concrete target needs no type
   name; skip it before any pointer is allocated"), so the pointee of a pointer target is run on its stream
   without the prefix [marshal] gave it: [rt_ok_w] is stated on [strip ts] *)
Definition is_tn (tk : token) : bool := kind tk =? KTypeName.
Fixpoint strip (ts : list token) : list token :=
  match ts with
  | tk :: r => if is_tn tk then strip r else ts
  | [] => []
  end.
Fixpoint leadl (ts : list token) : list token :=
  match ts with
  | tk :: r => if is_tn tk then tk :: leadl r else []
  | [] => []
  end.

Lemma leadl_strip ts : leadl ts ++ strip ts = ts.
Proof. induction ts as [|tk r IH]; cbn [leadl strip]; [reflexivity|]. destruct (is_tn tk); cbn [app]; [now rewrite IH|reflexivity]. Qed.
Lemma leadl_tn ts : forallb is_tn (leadl ts) = true.
Proof. induction ts as [|tk r IH]; cbn [leadl]; [reflexivity|]. destruct (is_tn tk) eqn:E; cbn [forallb]; [now rewrite E, IH|reflexivity]. Qed.
Lemma strip_prefix t body : strip (reg_prefix t ++ body) = strip body.
Proof. destruct (reg_prefix_cases t) as [E|[n E]]; rewrite E; reflexivity. Qed.
Lemma leadl_prefix t body : length (leadl (reg_prefix t ++ body)) = (length (reg_prefix t) + length (leadl body))%nat.
Proof. destruct (reg_prefix_cases t) as [E|[n E]]; rewrite E; reflexivity. Qed.
Lemma reg_prefix_len t : (length (reg_prefix t) <= 1)%nat.
Proof. destruct (reg_prefix_cases t) as [E|[n E]]; rewrite E; cbn; lia. Qed.
Lemma strip_ntn tk r : is_tn tk = false -> strip (tk :: r) = tk :: r /\ leadl (tk :: r) = [].
Proof. intros H. cbn [strip leadl]. rewrite H. split; reflexivity. Qed.

Fixpoint vsize (v : gval) : nat :=
  match v with
  | GList _ l => S ((fix go (l : list gval) : nat := match l with [] => O | x :: r => (vsize x + go r)%nat end) l)
  | GStruct l => S ((fix go (l : list gval) : nat := match l with [] => O | x :: r => (vsize x + go r)%nat end) l)
  | GPtr (Some x) => S (vsize x)
  | _ => 1%nat
  end.
Definition lsize : list gval -> nat :=
  fix go (l : list gval) : nat := match l with [] => O | x :: r => (vsize x + go r)%nat end.
Lemma vsize_list n l : vsize (GList n l) = S (lsize l). Proof. reflexivity. Qed.
Lemma vsize_struct l : vsize (GStruct l) = S (lsize l). Proof. reflexivity. Qed.
Lemma lsize_cons x l : lsize (x :: l) = (vsize x + lsize l)%nat. Proof. reflexivity. Qed.
Lemma vsize_pos v : (1 <= vsize v)%nat.
Proof. destruct v as [| | | | | | | | | |[x|]| | |]; cbn [vsize]; lia. Qed.

Lemma strip_head_tok t tk body (v : gval) :
  is_tn tk = false -> head_ok tk -> kind tk <> KNil ->
  (length (leadl (reg_prefix t ++ tk :: body)) <= vsize v)%nat /\
  exists tk' r, strip (reg_prefix t ++ tk :: body) = tk' :: r /\ head_ok tk' /\ is_tn tk' = false /\
                (kind tk' = KNil -> no_ptr_to_nil v = true -> v = GPtr None).
Proof.
  intros Htn Hh Hk. rewrite strip_prefix, leadl_prefix. destruct (strip_ntn tk body Htn) as [E1 E2].
  rewrite E1, E2. cbn [length]. pose proof (reg_prefix_len t). pose proof (vsize_pos v). split; [lia|].
  exists tk, body. repeat split; try assumption; try apply Hh. intros Hk'; contradiction.
Qed.

(* every value but a pointer starts, after its own prefix, with a concrete token that is no TypeName,
   no literal, no end marker and not Nil *)
Ltac plain_head := apply strip_head_tok; [reflexivity|split; reflexivity|discriminate].

Lemma strip_head o : forall v t ts,
  has_type t v = true -> simple_ty t = true -> marshal o t v = Ok ts ->
  (length (leadl ts) <= vsize v)%nat /\
  exists tk r, strip ts = tk :: r /\ head_ok tk /\ is_tn tk = false /\
               (kind tk = KNil -> no_ptr_to_nil v = true -> v = GPtr None).
Proof.
  induction v as [b|z|n|b|b|s|n s|n l IH|n es|l IH| |x IH|d|r|e] using gval_ind2; intros t ts Hty Hs Hm;
    pose proof (simple_underlying t Hs) as Hsu.
  - cbn [marshal bind] in Hm. injection Hm as <-. plain_head.
  - cbn [marshal has_type] in Hm, Hty. destruct (underlying t); try discriminate.
    cbn [bind] in Hm. injection Hm as <-. destruct w; plain_head.
  - cbn [marshal has_type] in Hm, Hty. destruct (underlying t); try discriminate;
    cbn [bind] in Hm; injection Hm as <-; try destruct w; plain_head.
  - cbn [marshal] in Hm. destruct (f32_is_nan b); cbn [bind] in Hm; injection Hm as <-; plain_head.
  - cbn [marshal] in Hm. destruct (f64_is_nan b); cbn [bind] in Hm; injection Hm as <-; plain_head.
  - cbn [marshal bind] in Hm. injection Hm as <-. plain_head.
  - cbn [marshal bind] in Hm. injection Hm as <-. plain_head.
  - apply marshal_list_ok in Hm. destruct Hm as (body & _ & ->). plain_head.
  - cbn [has_type] in Hty. destruct (underlying t); discriminate.
  - apply marshal_struct_ok in Hm. destruct Hm as (body & _ & ->). plain_head.
  - cbn [marshal bind] in Hm. injection Hm as <-.
    rewrite strip_prefix, leadl_prefix. pose proof (reg_prefix_len t). split; [cbn; lia|].
    exists (T KNil VNone), []. repeat split; reflexivity.
  - apply marshal_ptr_ok in Hm. destruct Hm as (a & Hm & ->).
    cbn [has_type] in Hty. unfold pointee_ty in Hm.
    destruct (underlying t) eqn:Hut; try discriminate. cbn [simple_ty] in Hsu.
    destruct (IH _ _ Hty Hsu Hm) as (Hl & tk & r & E & Hh & Htn & Hnil).
    rewrite strip_prefix, leadl_prefix. pose proof (reg_prefix_len t) as Hp. split; [cbn [vsize]; clear - Hl Hp; lia|].
    exists tk, r. repeat split; try assumption; try apply Hh. intros Hk Hnp. exfalso.
    cbn [no_ptr_to_nil] in Hnp.
    assert (Hx : no_ptr_to_nil x = true) by (destruct x as [| | | | | | | | | |[y|]| | |]; try exact Hnp; discriminate Hnp).
    specialize (Hnil Hk Hx). subst x. discriminate Hnp.
  - cbn [has_type] in Hty. destruct (underlying t); discriminate.
  - cbn [has_type] in Hty. destruct (underlying t); discriminate.
  - cbn [marshal bind] in Hm. injection Hm as <-. plain_head.
Qed.

Lemma marshal_head o : forall v t ts,
  has_type t v = true -> simple_ty t = true -> marshal o t v = Ok ts ->
  exists tk r, ts = tk :: r /\ head_ok tk /\ (kind tk = KNil -> no_ptr_to_nil v = true -> v = GPtr None).
Proof.
  intros v t ts Hty Hs Hm. destruct (strip_head o v t ts Hty Hs Hm) as (_ & tk & r & E & Hh & _ & Hnil).
  destruct ts as [|tk0 r0]; [discriminate E|]. cbn [strip] in E. unfold is_tn in E.
  destruct (kind tk0 =? KTypeName) eqn:Hk.
  - apply N.eqb_eq in Hk. exists tk0, r0. unfold head_ok. rewrite Hk. repeat split. discriminate.
  - injection E as -> ->. exists tk, r. repeat split; assumption || apply Hh.
Qed.

Section SimpleTarget.
Variable pf : bytes -> N -> option N.
Variable o : copts.
Variable R : registry.

Lemma unm_skip_tns t cur s x : simple_ty t = true ->
  forall pre, forallb is_tn pre = true ->
  forall F, (length pre <= F)%nat ->
  unm pf (F - length pre) o R t cur s = Ok x -> unm pf F o R t cur (pre ++ s) = Ok x.
Proof.
  intros Hs. induction pre as [|tk pre IH]; intros Hp F HF H.
  - cbn [length app] in *. rewrite Nat.sub_0_r in H. exact H.
  - cbn [forallb] in Hp. apply andb_true_iff in Hp. destruct Hp as [Htk Hp].
    destruct F as [|F]; [cbn in HF; lia|]. cbn [app]. rewrite unm_skip by (assumption || apply simple_concrete, Hs).
    apply IH; [exact Hp|cbn [length] in HF; lia|exact H].
Qed.

Lemma rt_nonptr f t cur pre body tk r rest x n :
  body = tk :: r -> is_tn tk = false -> forallb is_tn pre = true -> simple_ty t = true -> (1 <= n)%nat ->
  (length pre + n < f + length (leadl (reg_prefix t ++ body)))%nat ->
  (forall f1, (n <= S f1)%nat -> unm pf (S f1) o R t cur (body ++ rest) = Ok x) ->
  unm pf f o R t cur (pre ++ strip (reg_prefix t ++ body) ++ rest) = Ok x.
Proof.
  intros -> Htk Hp Hs Hn Hf Hk. rewrite strip_prefix, leadl_prefix in *.
  destruct (strip_ntn tk r Htk) as [E1 E2]. rewrite E1. rewrite E2 in Hf. cbn [length] in Hf.
  pose proof (reg_prefix_len t) as Hl.
  apply unm_skip_tns; [exact Hs|exact Hp|lia|].
  destruct (f - length pre)%nat as [|f1] eqn:E; [clear - Hf Hl Hn E; lia|]. apply Hk. clear - Hf Hl E. lia.
Qed.

Lemma unm_with_prefix F t cur body x :
  simple_ty t = true -> (2 <= F)%nat ->
  unm pf (pred F) o R t cur body = Ok x ->
  unm pf F o R t cur (reg_prefix t ++ body) = Ok x.
Proof.
  intros Hs HF H. destruct F as [|F]; [lia|]. cbn [pred] in H.
  destruct (reg_prefix_cases t) as [E|[n E]]; rewrite E; cbn [app].
  - eapply unm_fuel_mono; [exact H|discriminate|lia].
  - rewrite unm_skip; [exact H|reflexivity|apply simple_concrete, Hs].
Qed.

End SimpleTarget.

Lemma find_field_at : forall pre f fs i,
  names_nodup (pre ++ f :: fs) = true -> fexported f = true ->
  find_field (fname f) (pre ++ f :: fs) i = Some ((i + length pre)%nat, snd f).
Proof.
  induction pre as [|p pre IH]; intros f fs i Hnd Hex; cbn [app find_field length].
  - rewrite Hex, bytes_eqb_refl. cbn [andb]. f_equal. f_equal. lia.
  - cbn [app] in Hnd. rewrite names_nodup_cons in Hnd. apply andb_true_iff in Hnd. destruct Hnd as [Hp Hnd].
    apply negb_true_iff in Hp. rewrite existsb_app in Hp. apply orb_false_iff in Hp. destruct Hp as [_ Hp].
    cbn [existsb] in Hp. apply orb_false_iff in Hp. destruct Hp as [Hp _].
    rewrite Hp, andb_false_r. rewrite (IH f fs (S i) Hnd Hex). f_equal. f_equal. lia.
Qed.

Lemma bind2_ok {A B C} (r1 : res A) (r2 : res B) (k : A -> B -> C) y :
  bind r1 (fun a => bind r2 (fun b => Ok (k a b))) = Ok y -> exists a b, r1 = Ok a /\ r2 = Ok b /\ y = k a b.
Proof.
  intros H. apply bind_ok in H. destruct H as (a & Ha & H). apply bind_ok in H. destruct H as (b & Hb & H).
  injection H as <-. exists a, b. repeat split; assumption.
Qed.

Lemma marshal_list_cons_ok o e x l body : marshal_list o e (x :: l) = Ok body ->
  exists a b, marshal o e x = Ok a /\ marshal_list o e l = Ok b /\ body = a ++ b.
Proof. exact (bind2_ok (marshal o e x) (marshal_list o e l) (@app token) body). Qed.

Lemma marshal_fields_cons_ok o x l fd fs body : marshal_fields o (x :: l) (fd :: fs) = Ok body ->
  if emitted (skip_empty o) fd x
  then exists a b, marshal o (snd fd) x = Ok a /\ marshal_fields o l fs = Ok b /\
                   body = T KString (VStr (fname fd)) :: a ++ b
  else marshal_fields o l fs = Ok body.
Proof.
  rewrite marshal_fields_cons. unfold emitted. destruct (skip_empty o && _); cbn [negb]; [rewrite andb_false_r; tauto|].
  rewrite andb_true_r. destruct (fexported fd); cbn [negb]; [|tauto].
  exact (bind2_ok _ _ (fun a b => T KString (VStr (fname fd)) :: a ++ b) body).
Qed.

Lemma marshal_fields_cons_inv x l fd fs body : marshal_fields default_opts (x :: l) (fd :: fs) = Ok body ->
  if fexported fd
  then exists a b, marshal default_opts (snd fd) x = Ok a /\ marshal_fields default_opts l fs = Ok b /\
                   body = T KString (VStr (fname fd)) :: a ++ b
  else marshal_fields default_opts l fs = Ok body.
Proof. intros H. apply marshal_fields_cons_ok in H. rewrite <- (emitted_false fd x). exact H. Qed.

Lemma marshal_list_len o e : forall l body, typed_list e l = true -> simple_ty e = true ->
  marshal_list o e l = Ok body -> (length l <= length body)%nat.
Proof.
  induction l as [|x l IH]; intros body Hty Hs Hm; [cbn; lia|].
  apply marshal_list_cons_ok in Hm. destruct Hm as (a & b & Ha & Hb & ->).
  rewrite typed_list_cons in Hty.
  apply andb_true_iff in Hty. destruct Hty as [Htx Htl].
  destruct (marshal_head _ _ _ _ Htx Hs Ha) as (tk & r & -> & _ & _).
  specialize (IH b Htl Hs Hb). rewrite app_length. cbn [length]. clear - IH. lia.
Qed.

Section Loops.
Variable mo : copts.      (* the writer's options *)
Variable o : copts.       (* the reader's options *)
Variable rec : rec_t.

Definition elem_ok (x : gval) : Prop :=
  forall ft a rest', wf_ty ft = true -> simple_ty ft = true ->
    has_type ft x = true -> no_ptr_to_nil x = true -> marshal mo ft x = Ok a ->
    rec ft (zero ft) (a ++ rest') = Ok (normal_w (skip_empty mo) ft x, rest').

(* The list loops do not look at the values: if the recursive call reads the stream of each element
   back as some value, the loop reads the body back as the list of those values.  Stated once, for
   elements of type-class U and domain D whose stream is not longer than L, read back up to Q.  The bound L
   is for Proofs/RoundTripFullP.v ([elemF], where the fuel depends on it); [elem_ok_reads] ignores it. *)
Section Reads.
Variable U : ty -> bool.
Variable D : ty -> gval -> Prop.
Variable Q : ty -> gval -> gval -> list token -> Prop.
Variable L : nat.

Definition reads (x : gval) : Prop :=
  forall ft a rest', wf_ty ft = true -> U ft = true -> has_type ft x = true -> D ft x ->
    marshal mo ft x = Ok a -> (length a <= L)%nat ->
    (exists tk r, a = tk :: r /\ head_ok tk) /\ exists y, rec ft (zero ft) (a ++ rest') = Ok (y, rest') /\ Q ft x y a.

Definition read_as (e : ty) (x y : gval) : Prop := exists a, marshal mo e x = Ok a /\ Q e x y a.

Lemma slice_loop_reads e : wf_ty e = true -> U e = true ->
  forall l, Forall reads l -> typed_list e l = true -> Forall (D e) l ->
  forall body, marshal_list mo e l = Ok body -> (length body <= L)%nat ->
  forall g acc rest, (length body < g)%nat ->
  exists ys, slice_loop rec g e acc (body ++ T KArrayEnd VNone :: rest) = Ok (acc ++ ys, rest) /\
             Forall2 (read_as e) l ys.
Proof.
  intros Hwf Hu. induction 1 as [|x l Hx _ IH]; intros Hty Hd body Hm HL g acc rest Hg;
    (destruct g as [|g]; [clear - Hg; lia|]).
  - injection Hm as <-. exists []. cbn [app slice_loop kind]. rewrite app_nil_r. split; [reflexivity|constructor].
  - apply marshal_list_cons_ok in Hm. destruct Hm as (a & b & Ha & Hb & ->).
    rewrite typed_list_cons in Hty. apply andb_true_iff in Hty. destruct Hty as [Htx Htl].
    inversion Hd as [|? ? Hdx Hdl]; subst. rewrite app_length in HL, Hg.
    destruct (Hx e a (b ++ T KArrayEnd VNone :: rest) Hwf Hu Htx Hdx Ha ltac:(clear - HL; lia))
      as ((tk & r & -> & Hh) & y & Hrx & Hq).
    rewrite <- app_assoc. cbn [app length] in Hrx, Hg |- *.
    rewrite (slice_loop_step rec g e acc _ tk _ eq_refl (not_end_kind_neq _ KArrayEnd (proj2 Hh) eq_refl)), Hrx.
    cbn [bind fst snd].
    destruct (IH Htl Hdl b Hb ltac:(clear - HL; lia) g (acc ++ [y]) rest ltac:(clear - Hg; lia)) as (ys & Hloop & Hys).
    exists (y :: ys). rewrite Hloop, <- app_assoc. split; [reflexivity|].
    constructor; [exists (tk :: r); split; assumption|exact Hys].
Qed.

Lemma arr_loop_reads e : wf_ty e = true -> U e = true ->
  forall l, Forall reads l -> typed_list e l = true -> Forall (D e) l ->
  forall body, marshal_list mo e l = Ok body -> (length body <= L)%nat ->
  forall g done rest, (length body < g)%nat ->
  exists ys, arr_loop rec g e (done ++ repeat (zero e) (length l)) (length done) (body ++ T KArrayEnd VNone :: rest)
             = Ok (done ++ ys, rest) /\
             Forall2 (read_as e) l ys.
Proof.
  intros Hwf Hu. induction 1 as [|x l Hx _ IH]; intros Hty Hd body Hm HL g done rest Hg;
    (destruct g as [|g]; [clear - Hg; lia|]).
  - injection Hm as <-. exists []. split; [reflexivity|constructor].
  - apply marshal_list_cons_ok in Hm. destruct Hm as (a & b & Ha & Hb & ->).
    rewrite typed_list_cons in Hty. apply andb_true_iff in Hty. destruct Hty as [Htx Htl].
    inversion Hd as [|? ? Hdx Hdl]; subst. rewrite app_length in HL, Hg.
    destruct (Hx e a (b ++ T KArrayEnd VNone :: rest) Hwf Hu Htx Hdx Ha ltac:(clear - HL; lia))
      as ((tk & r & -> & Hh) & y & Hrx & Hq).
    rewrite <- app_assoc. cbn [app length repeat] in Hrx, Hg |- *.
    rewrite (arr_loop_step rec g e _ _ _ tk _ eq_refl (not_end_kind_neq _ KArrayEnd (proj2 Hh) eq_refl)).
    assert (Hlen : Nat.leb (length (done ++ zero e :: repeat (zero e) (length l))) (length done) = false).
    { apply Nat.leb_gt. rewrite app_length. cbn [length]. clear. lia. }
    rewrite Hlen, nth_app_here, Hrx. cbn [bind fst snd]. rewrite set_nth_app.
    destruct (IH Htl Hdl b Hb ltac:(clear - HL; lia) g (done ++ [y]) rest ltac:(clear - Hg; lia)) as (ys & Hloop & Hys).
    rewrite <- !app_assoc, app_length, Nat.add_1_r in Hloop. cbn [app] in Hloop.
    exists (y :: ys). split; [exact Hloop|]. constructor; [exists (tk :: r); split; assumption|exact Hys].
Qed.

End Reads.

Lemma elem_ok_reads L x : elem_ok x ->
  reads simple_ty (fun _ x => no_ptr_to_nil x = true) (fun ft x y _ => y = normal_w (skip_empty mo) ft x) L x.
Proof.
  intros Hx ft a rest' Hwf Hs Ht Hn Hm _. split.
  - destruct (marshal_head _ _ _ _ Ht Hs Hm) as (tk & r & E & Hh & _). exists tk, r. split; assumption.
  - exists (normal_w (skip_empty mo) ft x). split; [exact (Hx ft a rest' Hwf Hs Ht Hn Hm)|reflexivity].
Qed.

Lemma read_as_normal e : forall l ys,
  Forall2 (read_as (fun ft x y _ => y = normal_w (skip_empty mo) ft x) e) l ys -> ys = map (normal_w (skip_empty mo) e) l.
Proof. induction 1 as [|x y l ys (_ & _ & ->) _ ->]; reflexivity. Qed.

Hypothesis Hname : forall s cur rest', rec TString cur (T KString (VStr s) :: rest') = Ok (GStr s, rest').

(* the object loop on a stream that carries only the emitted fields: an omitted field keeps the
   zero content the target started with *)
Lemma struct_loop_rt : forall l, Forall elem_ok l ->
  forall fsall pre fs donev body, fsall = pre ++ fs -> names_nodup fsall = true ->
  forallb (fun f => wf_bytesb (fname f) && wf_ty (snd f)) fs = true ->
  forallb (fun f => simple_ty (snd f)) fs = true ->
  typed_fields l fs = true -> forallb no_ptr_to_nil l = true ->
  marshal_fields mo l fs = Ok body -> length donev = length pre ->
  forall g depr rest, (length body < g)%nat ->
  struct_loop o rec g fsall depr (donev ++ map (fun fd => zero (snd fd)) fs) (body ++ T KObjectEnd VNone :: rest)
  = Ok (donev ++ nfields_w (skip_empty mo) l fs, rest).
Proof.
  induction 1 as [|x l Hx _ IH]; intros fsall pre fs donev body Hall Hnd Hwf Hs Hty Hnp Hm Hlen g depr rest Hg.
  - destruct fs as [|fd fs]; [|discriminate Hty]. injection Hm as <-.
    destruct g as [|g]; [clear - Hg; cbn in Hg; lia|]. reflexivity.
  - destruct fs as [|fd fs]; [discriminate Hty|].
    rewrite typed_fields_cons in Hty.
    apply andb_true_iff in Hty. destruct Hty as [Htx Htl].
    cbn [forallb] in Hnp, Hwf, Hs.
    apply andb_true_iff in Hnp. destruct Hnp as [Hnx Hnl].
    apply andb_true_iff in Hwf. destruct Hwf as [Hwx Hwl]. apply andb_true_iff in Hwx. destruct Hwx as [_ Hwx].
    apply andb_true_iff in Hs. destruct Hs as [Hsx Hsl].
    apply marshal_fields_cons_ok in Hm.
    assert (Hnext : forall y body' g', marshal_fields mo l fs = Ok body' -> (length body' < g')%nat ->
              struct_loop o rec g' fsall depr ((donev ++ [y]) ++ map (fun fd => zero (snd fd)) fs)
                (body' ++ T KObjectEnd VNone :: rest) = Ok ((donev ++ [y]) ++ nfields_w (skip_empty mo) l fs, rest)).
    { intros y body' g' Hb Hg'. apply (IH fsall (pre ++ [fd]) fs (donev ++ [y]) body'); try assumption.
      - rewrite <- app_assoc. exact Hall.
      - rewrite !app_length. cbn [length]. clear - Hlen. lia. }
    rewrite nfields_w_cons. cbn [map].
    destruct (emitted (skip_empty mo) fd x) eqn:Hk.
    + apply andb_true_iff in Hk. destruct Hk as [Hex _].
      destruct Hm as (a & b & Ha & Hb & ->).
      destruct g as [|g]; [clear - Hg; cbn [length] in Hg; lia|]. cbn [app struct_loop kind].
      change (KString =? KObjectEnd) with false. cbn beta iota.
      rewrite Hname. cbn [bind fst snd].
      subst fsall. rewrite (find_field_at pre fd fs 0 Hnd Hex). cbn [Nat.add].
      rewrite <- Hlen, nth_app_here. rewrite <- app_assoc.
      rewrite (Hx (snd fd) a _ Hwx Hsx Htx Hnx Ha). cbn [bind fst snd].
      rewrite set_nth_app.
      specialize (Hnext (normal_w (skip_empty mo) (snd fd) x) b g Hb
                    ltac:(clear - Hg; cbn [length] in Hg; rewrite app_length in Hg; lia)).
      rewrite <- !app_assoc in Hnext. cbn [app] in Hnext. exact Hnext.
    + specialize (Hnext (zero (snd fd)) body g Hm ltac:(clear - Hg; cbn [length] in Hg; lia)).
      rewrite <- !app_assoc in Hnext. cbn [app] in Hnext. exact Hnext.
Qed.

End Loops.

Section RoundTripW.
Variable pf : bytes -> N -> option N.
Variable mo : copts.      (* the writer's options *)
Variable o : copts.       (* the reader's options *)
Variable R : registry.

(* the induction needs extra TypeName tokens in front ([pre]) and the stream stripped of its
   own leading TypeName tokens: a pointer target skips them before dereferencing, so the pointee never
   sees its own prefix.  The stripped stream needs [length (leadl ts)] less fuel.  The factor 2 is spent in
   the pointer case of [roundtrip_w]: a level takes one unit of fuel for its step, and of the credit
   [length (leadl ts)] only the part after its own prefix (at most one token, [reg_prefix_len]) goes on to
   the pointee. *)
Definition rt_ok_w (v : gval) : Prop :=
  forall t ts, wf_ty t = true -> simple_ty t = true ->
    has_type t v = true -> no_ptr_to_nil v = true -> marshal mo t v = Ok ts ->
    forall pre f rest, forallb is_tn pre = true ->
    (length pre + 2 * vsize v < f + length (leadl ts))%nat ->
    unm pf f o R t (zero t) (pre ++ strip ts ++ rest) = Ok (normal_w (skip_empty mo) t v, rest).

Lemma rt_elem_ok f l : Forall rt_ok_w l -> (2 * lsize l < f)%nat -> Forall (elem_ok mo (unm pf f o R)) l.
Proof.
  induction 1 as [|x l Hx _ IH]; intros Hf; constructor.
  - intros ft a rest' Hwf Hs Ht Hn Hm.
    rewrite <- (leadl_strip a), <- app_assoc. apply Hx; try assumption; [apply leadl_tn|].
    rewrite lsize_cons in Hf. clear - Hf. lia.
  - apply IH. rewrite lsize_cons in Hf. clear - Hf. lia.
Qed.

(* leaf values: [reg_prefix t ++ [tk]] *)
Ltac leaf_case Hs Hp Hf step :=
  eapply (rt_nonptr pf o R); [reflexivity|reflexivity|exact Hp|exact Hs| |exact Hf|];
  [clear; cbn [vsize]; lia|]; intros f1 _; cbn [app]; step.

Theorem roundtrip_w : forall v, rt_ok_w v.
Proof.
  induction v as [b|z|n|b|b|s|n s|n l IH|n es|l IH| |x IH|d|r|e] using gval_ind2;
    intros t ts Hwf Hs Hty Hnp Hm pre f rest Hp Hf;
    pose proof (simple_underlying t Hs) as Hsu; pose proof (wf_underlying t Hwf) as Hwu.
  - (* bool *)
    cbn [has_type] in Hty. destruct (underlying t) eqn:Hut; try discriminate.
    cbn [marshal bind] in Hm. injection Hm as <-.
    leaf_case Hs Hp Hf ltac:(apply unm_bool; exact Hut).
  - (* int *)
    cbn [has_type marshal] in Hty, Hm. destruct (underlying t) eqn:Hut; try discriminate.
    cbn [bind] in Hm. injection Hm as <-.
    destruct w; leaf_case Hs Hp Hf ltac:(apply (unm_int pf o R _ _ _ _ _ _ Hut)).
  - (* uint / uintptr *)
    cbn [has_type marshal] in Hty, Hm. destruct (underlying t) eqn:Hut; try discriminate;
    cbn [bind] in Hm; injection Hm as <-.
    + destruct w; leaf_case Hs Hp Hf ltac:(apply (unm_uint pf o R _ _ _ _ _ _ Hut)).
    + leaf_case Hs Hp Hf ltac:(apply unm_uintptr; exact Hut).
  - (* float32 *)
    cbn [has_type] in Hty. destruct (underlying t) eqn:Hut; try discriminate.
    cbn [marshal normal_w] in Hm |- *. destruct (f32_is_nan b); cbn [bind] in Hm; injection Hm as <-.
    + leaf_case Hs Hp Hf ltac:(apply unm_nan32; exact Hut).
    + leaf_case Hs Hp Hf ltac:(apply unm_f32; exact Hut).
  - (* float64 *)
    cbn [has_type] in Hty. destruct (underlying t) eqn:Hut; try discriminate.
    cbn [marshal normal_w] in Hm |- *. destruct (f64_is_nan b); cbn [bind] in Hm; injection Hm as <-.
    + leaf_case Hs Hp Hf ltac:(apply unm_nan64; exact Hut).
    + leaf_case Hs Hp Hf ltac:(apply unm_f64; exact Hut).
  - (* string *)
    cbn [has_type] in Hty. destruct (underlying t) eqn:Hut; try discriminate.
    cbn [marshal bind] in Hm. injection Hm as <-.
    leaf_case Hs Hp Hf ltac:(apply unm_string; exact Hut).
  - (* bytes / byte array *)
    cbn [has_type] in Hty. destruct (underlying t) eqn:Hut; try discriminate;
    cbn [marshal bind] in Hm; injection Hm as <-.
    + leaf_case Hs Hp Hf ltac:(apply unm_bytes; exact Hut).
    + leaf_case Hs Hp Hf ltac:(idtac).
      apply andb_true_iff in Hty. destruct Hty as [Hty _]. apply andb_true_iff in Hty. destruct Hty as [_ Hlen].
      apply Nat.eqb_eq in Hlen.
      rewrite (unm_bytearray pf o R _ _ _ _ _ _ Hut) by (rewrite Hlen; apply Nat.le_refl). cbn [normal_w].
      rewrite zero_underlying, Hut. cbn [zero bytes_of_gval].
      rewrite <- Hlen, firstn_all.
      assert (Hsk : forall k, skipn k (rep k 0) = []) by (induction k; [reflexivity|assumption]).
      rewrite Hsk, app_nil_r. reflexivity.
  - (* list: array or slice *)
    rewrite has_type_list in Hty. rewrite normal_w_list.
    apply marshal_list_ok in Hm. destruct Hm as (body & Hm & ->).
    cbn [forallb no_ptr_to_nil] in Hnp. rewrite vsize_list in Hf.
    eapply (rt_nonptr pf o R); [reflexivity|reflexivity|exact Hp|exact Hs| |exact Hf|]; [clear; lia|].
    intros f' Hf'.
    pose proof (Forall_impl _ (elem_ok_reads mo _ (length body)) (rt_elem_ok f' l IH ltac:(clear - Hf'; lia))) as Hel.
    rewrite forallb_forall, <- Forall_forall in Hnp.
    assert (Hg : (length body < S (length (body ++ T KArrayEnd VNone :: rest)))%nat) by (rewrite app_length; clear; lia).
    unfold elem_ty in Hm.
    destruct (underlying t) eqn:Hut; try discriminate.
    + (* array *)
      cbn [wf_ty simple_ty] in Hwu, Hsu.
      apply andb_true_iff in Hty. destruct Hty as [Hty Hall]. apply andb_true_iff in Hty. destruct Hty as [_ Hlen].
      apply Nat.eqb_eq in Hlen.
      cbn [app]. rewrite (unm_array_step pf o R _ _ _ _ _ _ Hut).
      rewrite zero_underlying, Hut. cbn [zero items_of_gval]. rewrite <- Hlen.
      rewrite <- app_assoc. cbn [app].
      destruct (arr_loop_reads mo _ _ _ _ _ _ Hwu Hsu l Hel Hall Hnp body Hm (le_n _) _ [] rest Hg) as (ys & Hloop & Hys).
      cbn [app length] in Hloop. rewrite Hloop, (read_as_normal mo _ _ _ Hys). reflexivity.
    + (* slice *)
      cbn [wf_ty simple_ty] in Hwu, Hsu.
      apply andb_true_iff in Hty. destruct Hty as [_ Hall].
      cbn [app]. rewrite (unm_slice_step pf o R _ _ _ _ _ Hut).
      rewrite zero_underlying, Hut. cbn [zero items_of_gval is_nil_container].
      rewrite <- app_assoc. cbn [app].
      destruct (slice_loop_reads mo _ _ _ _ _ _ Hwu Hsu l Hel Hall Hnp body Hm (le_n _) _ [] rest Hg) as (ys & Hloop & Hys).
      rewrite Hloop, (read_as_normal mo _ _ _ Hys). cbn [bind fst snd app andb]. destruct l; reflexivity.
  - (* map: excluded *)
    cbn [has_type] in Hty. destruct (underlying t); discriminate.
  - (* struct *)
    rewrite has_type_struct in Hty. rewrite normal_w_struct.
    apply marshal_struct_ok in Hm. destruct Hm as (body & Hm & ->).
    cbn [no_ptr_to_nil] in Hnp. rewrite vsize_struct in Hf.
    eapply (rt_nonptr pf o R); [reflexivity|reflexivity|exact Hp|exact Hs| |exact Hf|]; [clear; lia|].
    intros f' Hf'.
    pose proof (rt_elem_ok f' l IH ltac:(clear - Hf'; lia)) as Hel.
    unfold fields_of in Hm.
    destruct (underlying t) eqn:Hut; try discriminate.
    rewrite wf_ty_struct in Hwu. apply andb_true_iff in Hwu. destruct Hwu as [Hwfs Hnd].
    cbn [simple_ty] in Hsu.
    cbn [app]. rewrite (unm_struct_step pf o R _ _ _ _ _ Hut).
    rewrite zero_underlying, Hut. cbn [zero]. rewrite <- app_assoc. cbn [app].
    pose proof (struct_loop_rt mo o (unm pf f' o R) (unm_name_fuel pf o R f' ltac:(clear - Hf'; lia)) l Hel fs [] fs [] body eq_refl Hnd Hwfs Hsu Hty Hnp Hm eq_refl
                  (S (length (body ++ T KObjectEnd VNone :: rest))) (depr_of t) rest) as Hloop.
    cbn [app] in Hloop. rewrite Hloop; [reflexivity|].
    rewrite app_length. clear. lia.
  - (* nil pointer *)
    cbn [has_type] in Hty. destruct (underlying t) eqn:Hut; try discriminate.
    cbn [marshal bind] in Hm. injection Hm as <-. cbn [normal_w].
    leaf_case Hs Hp Hf ltac:(idtac).
    rewrite nil_leaves_untouched by (rewrite Hut; discriminate).
    rewrite zero_underlying, Hut. reflexivity.
  - (* non-nil pointer *)
    cbn [has_type] in Hty. destruct (underlying t) eqn:Hut; try discriminate.
    apply marshal_ptr_ok in Hm. destruct Hm as (tsx & Hm & ->). unfold pointee_ty in Hm. rewrite Hut in Hm.
    cbn [normal_w]. rewrite Hut. cbn [wf_ty simple_ty] in Hwu, Hsu.
    assert (Hnx : no_ptr_to_nil x = true /\ x <> GPtr None).
    { cbn [no_ptr_to_nil] in Hnp. destruct x as [| | | | | | | | | |[y|]| | |]; try (split; [exact Hnp|discriminate]).
      discriminate Hnp. }
    destruct Hnx as [Hnx Hxn].
    destruct (strip_head _ _ _ _ Hty Hsu Hm) as (Hlead & tk & r & E & Hh & Htn & Hnil).
    rewrite strip_prefix. rewrite leadl_prefix in Hf. pose proof (reg_prefix_len t) as Hpl.
    cbn [vsize] in Hf.
    apply unm_skip_tns; [exact Hs|exact Hp|clear - Hf Hlead Hpl; lia|].
    destruct (f - length pre)%nat as [|f1] eqn:Ef; [clear - Hf Hlead Hpl Ef; lia|].
    rewrite E. cbn [app].
    rewrite (unm_ptr_head_ok pf o R f1 t _ _ tk _ Hut Hh Htn) by (intros Hk; apply Hxn, Hnil; assumption).
    change (tk :: r ++ rest) with ([] ++ (tk :: r) ++ rest). rewrite <- E.
    rewrite (IH _ _ Hwu Hsu Hty Hnx Hm [] f1 rest eq_refl) by (cbn [length]; clear - Hf Hlead Hpl Ef; lia).
    reflexivity.
  - cbn [has_type] in Hty. destruct (underlying t); discriminate.
  - cbn [has_type] in Hty. destruct (underlying t); discriminate.
  - (* time *)
    cbn [has_type] in Hty. destruct (underlying t) eqn:Hut; try discriminate.
    apply andb_true_iff in Hty. destruct Hty as [_ Hv].
    cbn [marshal bind] in Hm. injection Hm as <-. cbn [normal_w].
    leaf_case Hs Hp Hf ltac:(apply unm_time; assumption).
Qed.

End RoundTripW.

Section RoundTrip.
Variable pf : bytes -> N -> option N.
Variable o : copts.
Variable R : registry.

Definition rt_ok (v : gval) : Prop :=
  forall t ts, wf_ty t = true -> simple_ty t = true ->
    has_type t v = true -> no_ptr_to_nil v = true -> marshal default_opts t v = Ok ts ->
    forall pre f rest, forallb is_tn pre = true ->
    (length pre + 2 * vsize v < f + length (leadl ts))%nat ->
    unm pf f o R t (zero t) (pre ++ strip ts ++ rest) = Ok (normal t v, rest).

Theorem roundtrip_all : forall v, rt_ok v.
Proof.
  intros v t ts Hwf Hs Hty Hnp Hm pre f rest Hp Hf. rewrite <- normal_w_false.
  exact (roundtrip_w pf default_opts o R v t ts Hwf Hs Hty Hnp Hm pre f rest Hp Hf).
Qed.

End RoundTrip.

(* C01 on the first universe.  No restriction on registered types is needed: a concrete target skips
   TypeName tokens before the time bridge and before any pointer dereference. *)
Theorem roundtrip_simple_fuel pf o R t v ts rest f :
  wf_ty t = true -> simple_ty t = true ->
  has_type t v = true -> no_ptr_to_nil v = true ->
  marshal default_opts t v = Ok ts -> (2 * vsize v < f)%nat ->
  unm pf f o R t (zero t) (ts ++ rest) = Ok (normal t v, rest).
Proof.
  intros Hwf Hs Ht Hn Hm Hf. rewrite <- (leadl_strip ts), <- app_assoc.
  apply (roundtrip_all pf o R v t ts); try assumption; [apply leadl_tn|lia].
Qed.

Theorem roundtrip_simple pf o R t v ts rest :
  wf_ty t = true -> simple_ty t = true ->
  has_type t v = true -> no_ptr_to_nil v = true ->
  marshal default_opts t v = Ok ts ->
  exists f, unm pf f o R t (zero t) (ts ++ rest) = Ok (normal t v, rest).
Proof. intros. exists (S (2 * vsize v)). eapply roundtrip_simple_fuel; try eassumption. apply Nat.lt_succ_diag_r. Qed.

Definition canonical_val (t : ty) (v : gval) : Prop := normal t v = v.

Corollary roundtrip_simple_exact pf o R t v ts rest :
  wf_ty t = true -> simple_ty t = true ->
  has_type t v = true -> no_ptr_to_nil v = true -> canonical_val t v ->
  marshal default_opts t v = Ok ts ->
  exists f, unm pf f o R t (zero t) (ts ++ rest) = Ok (v, rest).
Proof.
  intros Hwf Hs Ht Hn Hc Hm. destruct (roundtrip_simple pf o R t v ts rest Hwf Hs Ht Hn Hm) as (f & Hf).
  exists f. rewrite Hf, Hc. reflexivity.
Qed.

Definition RegPtr : ty := TNamed [80] true [] (TPtr (TInt WNat)).
Definition RegTime : ty := TNamed [84] true [] TTime.
Definition zero_time : bytes := [1; 0; 0; 0; 0; 0; 0; 0; 0; 0; 0; 0; 0; 255; 255].

Example roundtrip_regptr_nil pf o R rest :
  marshal default_opts RegPtr (GPtr None) = Ok [T KTypeName (VStr [80]); T KNil VNone] /\
  exists f, unm pf f o R RegPtr (zero RegPtr) ([T KTypeName (VStr [80]); T KNil VNone] ++ rest) = Ok (GPtr None, rest).
Proof.
  split; [reflexivity|].
  apply (roundtrip_simple pf o R RegPtr (GPtr None)); reflexivity.
Qed.

Example roundtrip_regptr_nonnil pf o R rest :
  exists f, unm pf f o R RegPtr (zero RegPtr) ([T KTypeName (VStr [80]); T KInt (VI WNat 7)] ++ rest)
            = Ok (GPtr (Some (GInt 7)), rest).
Proof. apply (roundtrip_simple pf o R RegPtr (GPtr (Some (GInt 7)))); reflexivity. Qed.

Example roundtrip_regtime pf o R rest :
  marshal default_opts RegTime (GTime zero_time) = Ok [T KTypeName (VStr [84]); T KString (VStr zero_time)] /\
  exists f, unm pf f o R RegTime (zero RegTime) ([T KTypeName (VStr [84]); T KString (VStr zero_time)] ++ rest)
            = Ok (GTime zero_time, rest).
Proof.
  split; [reflexivity|].
  apply (roundtrip_simple pf o R RegTime (GTime zero_time)); reflexivity.
Qed.

Example roundtrip_reg_run :
  unm (fun _ _ => None) 5 default_opts [] RegPtr (zero RegPtr) [T KTypeName (VStr [80]); T KNil VNone] = Ok (GPtr None, []) /\
  unm (fun _ _ => None) 5 default_opts [] RegTime (zero RegTime) [T KTypeName (VStr [84]); T KString (VStr zero_time)]
  = Ok (GTime zero_time, []).
Proof. split; vm_compute; reflexivity. Qed.

(* a nested struct with a slice of pointers to a registered named struct that has an unexported field and
   a byte array; an array with a NaN; a nil []byte; an empty slice; a time; a pointer to a pointer *)
Definition ExInner : ty :=
  TNamed [73] true [] (TStruct [([65], true, TInt W8); ([98], false, TString); ([67], true, TByteArray 3)]).
Definition ExOuter : ty :=
  TStruct [([80], true, TSlice (TPtr ExInner)); ([81], true, TArray 2 TF32); ([82], true, TBytes);
           ([83], true, TSlice TBool); ([84], true, TTime); ([85], true, TPtr (TPtr TBool))].
Definition ex_inner : gval := GStruct [GInt 5; GStr [1; 2]; GBytes false [7; 8; 9]].
Definition ex_outer : gval :=
  GStruct [GList false [GPtr (Some ex_inner); GPtr None]; GList false [GF32 2143289345; GF32 5];
           GBytes true []; GList false []; GTime zero_time; GPtr (Some (GPtr (Some (GBool true))))].

Example roundtrip_ex_hyps :
  wf_ty ExOuter = true /\ simple_ty ExOuter = true /\
  has_type ExOuter ex_outer = true /\ no_ptr_to_nil ex_outer = true /\
  exists ts, marshal default_opts ExOuter ex_outer = Ok ts.
Proof. repeat split; try (vm_compute; reflexivity). eexists. vm_compute. reflexivity. Qed.

(* what comes back: the unexported field b is zero, NaN is canonical, the nil []byte is empty non-nil,
   the empty slice is nil *)
Example roundtrip_ex_normal :
  normal ExOuter ex_outer =
  GStruct [GList false [GPtr (Some (GStruct [GInt 5; GStr []; GBytes false [7; 8; 9]])); GPtr None];
           GList false [GF32 f32_nan_bits; GF32 5]; GBytes false []; GList true []; GTime zero_time;
           GPtr (Some (GPtr (Some (GBool true))))].
Proof. vm_compute. reflexivity. Qed.

Example roundtrip_ex_run :
  forall ts, marshal default_opts ExOuter ex_outer = Ok ts ->
  unm (fun _ _ => None) 40 (Opts false true false) [] ExOuter (zero ExOuter) (ts ++ [T KBool (VBool true)])
  = Ok (normal ExOuter ex_outer, [T KBool (VBool true)]).
Proof. intros ts H. vm_compute in H. injection H as <-. vm_compute. reflexivity. Qed.

Example roundtrip_ex_thm : forall pf o R ts rest,
  marshal default_opts ExOuter ex_outer = Ok ts ->
  exists f, unm pf f o R ExOuter (zero ExOuter) (ts ++ rest) = Ok (normal ExOuter ex_outer, rest).
Proof.
  intros pf o R ts rest H. apply roundtrip_simple; try assumption; vm_compute; reflexivity.
Qed.

(* ==== 6. C16: struct decoding is by name; unknown fields are skipped ==== *)

(* a writer's field with its value.  [apply_fields] is what the object loop computes ([struct_loop_byname]):
   a left fold of [wstep] over the writer's fields in stream order.  [assign_l] is [assign_by_name]
   (Spec/Conform.v) on the zipped list: a map over the reader's fields, [Fa wl] looking the field up among the
   writer's.  [apply_assign]: they agree when names are distinct on both sides. *)
Definition wfield := ((bytes * bool * ty) * gval)%type.

Definition wstep (rfs : list (bytes * bool * ty)) (vals : list gval) (p : wfield) : list gval :=
  if fexported (fst p) then
    match find_field (fname (fst p)) rfs 0 with
    | Some (i, ft) => set_nth i (normal ft (snd p)) vals
    | None => vals
    end
  else vals.

Definition apply_fields (rfs : list (bytes * bool * ty)) (wl : list wfield) (vals : list gval) : list gval :=
  fold_left (wstep rfs) wl vals.

Definition assign_l (wl : list wfield) (rfs : list (bytes * bool * ty)) (rvals : list gval) : list gval :=
  map (fun '(rf, rv) =>
         match find (fun '(wf, _) => fexported wf && fexported rf && bytes_eqb (fname wf) (fname rf)) wl with
         | Some (wf, wv) => normal (snd rf) wv
         | None => rv
         end) (combine rfs rvals).

Definition Fa (l : list wfield) : (bytes * bool * ty) * gval -> gval :=
  fun '(rf, rv) =>
    match find (fun '(wf, _) => fexported wf && fexported rf && bytes_eqb (fname wf) (fname rf)) l with
    | Some (wf, wv) => normal (snd rf) wv
    | None => rv
    end.

Lemma assign_l_Fa wl rfs rvals : assign_l wl rfs rvals = map (Fa wl) (combine rfs rvals).
Proof. reflexivity. Qed.

Lemma apply_fields_cons rfs p wl vals : apply_fields rfs (p :: wl) vals = apply_fields rfs wl (wstep rfs vals p).
Proof. reflexivity. Qed.

Lemma assign_by_name_l wfs rfs wvals rvals :
  assign_by_name wfs rfs wvals rvals = assign_l (combine wfs wvals) rfs rvals.
Proof. reflexivity. Qed.

Lemma existsb_false {A} (f : A -> bool) l : existsb f l = false -> forall x, In x l -> f x = false.
Proof.
  intros H x Hx. destruct (f x) eqn:E; [|reflexivity].
  assert (existsb f l = true) by (apply existsb_exists; exists x; split; assumption). congruence.
Qed.

Lemma set_nth_length {A} (x : A) : forall l i, length (set_nth i x l) = length l.
Proof. induction l as [|y l IH]; intros [|i]; cbn [set_nth length]; try reflexivity. now rewrite IH. Qed.

Lemma nth_set_nth_other {A} (x d : A) : forall l i j, i <> j -> nth j (set_nth i x l) d = nth j l d.
Proof.
  induction l as [|y l IH]; intros [|i] [|j] Hne; cbn [set_nth nth]; try reflexivity; try congruence.
  apply IH. congruence.
Qed.

Lemma find_field_ge name : forall fs k i ft, find_field name fs k = Some (i, ft) -> (k <= i)%nat.
Proof.
  induction fs as [|f fs IH]; intros k i ft; cbn [find_field]; [discriminate|].
  destruct (fexported f && bytes_eqb (fname f) name); [intros [= <- _]; lia|].
  intros H. apply IH in H. lia.
Qed.

Lemma find_field_inj n1 n2 : forall fs k i ft1 ft2,
  find_field n1 fs k = Some (i, ft1) -> find_field n2 fs k = Some (i, ft2) -> n1 = n2.
Proof.
  induction fs as [|f fs IH]; intros k i ft1 ft2; cbn [find_field]; [discriminate|].
  destruct (fexported f && bytes_eqb (fname f) n1) eqn:E1; destruct (fexported f && bytes_eqb (fname f) n2) eqn:E2.
  - intros _ _. apply andb_true_iff in E1, E2. destruct E1 as [_ E1], E2 as [_ E2].
    apply bytes_eqb_true in E1, E2. congruence.
  - intros [= <- _] H. apply find_field_ge in H. lia.
  - intros H [= <- _]. apply find_field_ge in H. lia.
  - apply IH.
Qed.

Lemma map_snd_combine (rfs : list (bytes * bool * ty)) : forall (vals : list gval), length vals = length rfs ->
  map (fun '(rf, rv) => rv) (combine rfs vals) = vals.
Proof.
  induction rfs as [|rf rfs IH]; intros [|v vals] Hl; cbn in Hl |- *; try reflexivity; try discriminate.
  f_equal. apply IH. lia.
Qed.

Section AssignStep.
Variable wf : bytes * bool * ty.
Variable wv : gval.
Variable wl : list wfield.
Hypothesis Hfresh : forall p, In p wl -> bytes_eqb (fname wf) (fname (fst p)) = false.

Lemma Fa_cons rf rv :
  Fa ((wf, wv) :: wl) (rf, rv) =
  if fexported wf && fexported rf && bytes_eqb (fname wf) (fname rf) then normal (snd rf) wv else Fa wl (rf, rv).
Proof. unfold Fa. cbn [find]. destruct (fexported wf && fexported rf && bytes_eqb (fname wf) (fname rf)); reflexivity. Qed.

Lemma Fa_none rf rv : bytes_eqb (fname wf) (fname rf) = true -> Fa wl (rf, rv) = rv.
Proof.
  intros E. apply bytes_eqb_true in E. unfold Fa.
  assert (H : find (fun '(wf0, _) => fexported wf0 && fexported rf && bytes_eqb (fname wf0) (fname rf)) wl = None).
  { clear - Hfresh E. induction wl as [|[wf' wv'] l IH]; [reflexivity|]. cbn [find].
    pose proof (Hfresh (wf', wv') (or_introl eq_refl)) as Hf. cbn [fst] in Hf.
    assert (Hh : bytes_eqb (fname wf') (fname rf) = false) by (rewrite <- E, bytes_eqb_sym; exact Hf).
    rewrite Hh, andb_false_r. apply IH. intros p Hp. apply Hfresh. right. exact Hp. }
  rewrite H. reflexivity.
Qed.

Lemma assign_step_gen : fexported wf = true ->
  forall rfs vals k, length vals = length rfs -> names_nodup rfs = true ->
  map (Fa ((wf, wv) :: wl)) (combine rfs vals) =
  map (Fa wl) (combine rfs match find_field (fname wf) rfs k with
                           | Some (i, ft) => set_nth (i - k) (normal ft wv) vals
                           | None => vals
                           end).
Proof.
  intros Hex. induction rfs as [|rf rfs IH]; intros vals k Hl Hnd.
  - destruct vals; reflexivity.
  - destruct vals as [|v vals]; [discriminate Hl|]. cbn [length] in Hl.
    rewrite names_nodup_cons in Hnd. apply andb_true_iff in Hnd. destruct Hnd as [Hrf Hnd].
    apply negb_true_iff in Hrf. cbn [find_field].
    destruct (fexported rf && bytes_eqb (fname rf) (fname wf)) eqn:Ec.
    + apply andb_true_iff in Ec. destruct Ec as [Hrex Ec]. rewrite Nat.sub_diag. cbn [set_nth combine map].
      rewrite Fa_cons, Hex, Hrex, (bytes_eqb_sym (fname wf)), Ec. cbn [andb].
      rewrite Fa_none by (rewrite bytes_eqb_sym; exact Ec). f_equal.
      apply map_ext_in. intros [rf' rv'] Hin. apply in_combine_l in Hin.
      rewrite Fa_cons. apply bytes_eqb_true in Ec. rewrite <- Ec.
      rewrite (existsb_false _ _ Hrf rf' Hin), andb_false_r. reflexivity.
    + assert (Hhead : Fa ((wf, wv) :: wl) (rf, v) = Fa wl (rf, v)).
      { rewrite Fa_cons, Hex, (bytes_eqb_sym (fname wf)). cbn [andb]. rewrite Ec. reflexivity. }
      specialize (IH vals (S k) ltac:(clear - Hl; lia) Hnd).
      destruct (find_field (fname wf) rfs (S k)) as [[i ft]|] eqn:Ef.
      * pose proof (find_field_ge _ _ _ _ _ Ef) as Hge.
        replace (i - k)%nat with (S (i - S k)) by (clear - Hge; lia). cbn [set_nth combine map]. rewrite Hhead, IH. reflexivity.
      * cbn [combine map]. rewrite Hhead, IH. reflexivity.
Qed.

End AssignStep.

Lemma apply_assign rfs : names_nodup rfs = true ->
  forall wl vals, names_nodup (map fst wl) = true -> length vals = length rfs ->
  apply_fields rfs wl vals = assign_l wl rfs vals.
Proof.
  intros Hnd. induction wl as [|[wf wv] wl IH]; intros vals Hwnd Hl.
  - rewrite assign_l_Fa. symmetry. apply map_snd_combine, Hl.
  - cbn [map fst] in Hwnd. rewrite names_nodup_cons in Hwnd. apply andb_true_iff in Hwnd. destruct Hwnd as [Hfr Hwnd].
    apply negb_true_iff in Hfr.
    rewrite apply_fields_cons, IH; [|exact Hwnd|].
    + rewrite !assign_l_Fa. unfold wstep. cbn [fst snd].
      destruct (fexported wf) eqn:Hex.
      * rewrite (assign_step_gen wf wv wl) with (k := 0%nat); try assumption.
        -- destruct (find_field (fname wf) rfs 0) as [[i ft]|]; [rewrite Nat.sub_0_r|]; reflexivity.
        -- intros p Hp. apply (existsb_false _ _ Hfr (fst p)). apply in_map, Hp.
      * apply map_ext. intros [rf rv]. rewrite Fa_cons, Hex. reflexivity.
    + unfold wstep. cbn [fst snd]. destruct (fexported wf); [|exact Hl].
      destruct (find_field (fname wf) rfs 0) as [[i ft]|]; [|exact Hl]. rewrite set_nth_length. exact Hl.
Qed.

(* a sequence of complete values / exactly one complete value *)
Definition bal (ts : list token) : Prop :=
  forall d rest, skip_value (S d) (ts ++ rest) = skip_value (S d) rest.
Definition val1 (ts : list token) : Prop :=
  (forall rest, skip_value 0 (ts ++ rest) = Ok rest) /\ bal ts.

Lemma bal_nil : bal [].
Proof. intros d rest. reflexivity. Qed.
Lemma bal_app a b : bal a -> bal b -> bal (a ++ b).
Proof. intros Ha Hb d rest. rewrite <- app_assoc, Ha, Hb. reflexivity. Qed.
Lemma val1_bal ts : val1 ts -> bal ts.
Proof. intros [_ H]; exact H. Qed.

Lemma val1_leaf tk : is_leaf_token tk = true -> val1 [tk].
Proof.
  unfold is_leaf_token. intros H. apply andb_true_iff in H. destruct H as [H H3].
  apply andb_true_iff in H. destruct H as [H1 H2]. apply negb_true_iff in H1, H2, H3.
  split; [intros rest|intros d rest]; cbn [app skip_value]; rewrite H1, H3, H2; reflexivity.
Qed.

Lemma val1_comp ko kc body :
  is_open_kind ko = true -> is_open_kind kc = false -> (kc =? KTypeName) = false -> is_end_kind kc = true ->
  bal body -> val1 (T ko VNone :: body ++ [T kc VNone]).
Proof.
  intros Ho Hc1 Hc2 Hc3 Hb. split; [intros rest|intros d rest]; cbn [app skip_value kind]; rewrite Ho;
    rewrite <- app_assoc, Hb; cbn [app skip_value kind]; rewrite Hc1, Hc2, Hc3; reflexivity.
Qed.

Lemma val1_typename n ts : val1 ts -> val1 (T KTypeName (VStr n) :: ts).
Proof. intros [H1 H2]. split; [intros rest|intros d rest]; cbn [app skip_value kind]; [apply H1|apply H2]. Qed.

Lemma val1_prefix t ts : val1 ts -> val1 (reg_prefix t ++ ts).
Proof.
  intros H. destruct (reg_prefix_cases t) as [E|[n E]]; rewrite E; cbn [app]; [exact H|apply val1_typename, H].
Qed.

Definition kv_ty (t : ty) : ty * ty := match underlying t with TMap k v => (k, v) | _ => (TAny, TAny) end.

Lemma marshal_GMap o t n es :
  marshal o t (GMap n es) =
  bind (let '(kt, vt) := kv_ty t in
        bind (marshal_entries o kt vt es) (fun es' =>
        Ok (T KMap VNone :: flat_map (fun e => snd (fst e) ++ snd e) (sort_entries es') ++ [T KMapEnd VNone])))
       (fun ts => Ok (reg_prefix t ++ ts)).
Proof. reflexivity. Qed.

Definition outs_of (t : ty) : list ty := match underlying t with TFunc outs => outs | _ => [] end.

Lemma marshal_GFunc o t items :
  marshal o t (GFunc (Some items)) =
  bind (if ignore_funcs o then Ok [T KNil VNone]
        else bind (marshal_outs o items (outs_of t)) (fun body => Ok (T KTuple VNone :: body ++ [T KTupleEnd VNone])))
       (fun ts => Ok (reg_prefix t ++ ts)).
Proof. reflexivity. Qed.

Definition val1_of (x : gval) : Prop := forall o t ts, marshal o t x = Ok ts -> val1 ts.

Lemma marshal_list_bal o et : forall l, Forall val1_of l -> forall body, marshal_list o et l = Ok body -> bal body.
Proof.
  induction 1 as [|x l Hx _ IH]; intros body Hm.
  - injection Hm as <-. apply bal_nil.
  - apply marshal_list_cons_ok in Hm. destruct Hm as (a & b & Ha & Hb & ->).
    apply bal_app; [apply val1_bal, (Hx _ _ _ Ha)|apply IH, Hb].
Qed.

Lemma marshal_outs_bal o : forall l, Forall val1_of l -> forall outs body, marshal_outs o l outs = Ok body -> bal body.
Proof.
  induction 1 as [|x l Hx _ IH]; intros outs body Hm.
  - injection Hm as <-. apply bal_nil.
  - destruct outs as [|xt outs]; [injection Hm as <-; apply bal_nil|].
    apply (bind2_ok (marshal o xt x) (marshal_outs o l outs) (@app token)) in Hm. destruct Hm as (a & b & Ha & Hb & ->).
    apply bal_app; [apply val1_bal, (Hx _ _ _ Ha)|apply (IH _ _ Hb)].
Qed.

Lemma marshal_fields_bal o : forall l, Forall val1_of l -> forall fs body, marshal_fields o l fs = Ok body -> bal body.
Proof.
  induction 1 as [|x l Hx _ IH]; intros fs body Hm.
  - injection Hm as <-. apply bal_nil.
  - destruct fs as [|fd fs]; [injection Hm as <-; apply bal_nil|].
    apply marshal_fields_cons_ok in Hm. destruct (emitted (skip_empty o) fd x); [|apply (IH _ _ Hm)].
    destruct Hm as (a & b & Ha & Hb & ->).
    change (T KString (VStr (fname fd)) :: a ++ b) with ([T KString (VStr (fname fd))] ++ a ++ b).
    apply bal_app; [apply val1_bal, val1_leaf; reflexivity|].
    apply bal_app; [apply val1_bal, (Hx _ _ _ Ha)|apply (IH _ _ Hb)].
Qed.

Definition entry_bal (e : entry) : Prop := bal (snd (fst e)) /\ bal (snd e).

Lemma insert_entry_bal e l : entry_bal e -> Forall entry_bal l -> Forall entry_bal (insert_entry e l).
Proof.
  intros He. induction 1 as [|x l Hx Hl IH]; cbn [insert_entry]; [constructor; [exact He|constructor]|].
  destruct (key_le e x).
  - constructor; [exact He|]. constructor; assumption.
  - constructor; assumption.
Qed.
Lemma sort_entries_bal l : Forall entry_bal l -> Forall entry_bal (sort_entries l).
Proof.
  induction 1 as [|x l Hx _ IH]; [constructor|]. unfold sort_entries. cbn [fold_right].
  apply insert_entry_bal; assumption.
Qed.
Lemma entries_flat_bal l : Forall entry_bal l -> bal (flat_map (fun e => snd (fst e) ++ snd e) l).
Proof.
  induction 1 as [|x l [H1 H2] _ IH]; cbn [flat_map]; [apply bal_nil|].
  apply bal_app; [apply bal_app; assumption|exact IH].
Qed.

Lemma marshal_entries_bal o kt vt : forall es, Forall (fun e => val1_of (fst e) /\ val1_of (snd e)) es ->
  forall es', marshal_entries o kt vt es = Ok es' -> Forall entry_bal es'.
Proof.
  induction 1 as [|[k x] es [Hk Hx] _ IH]; intros es' Hm.
  - injection Hm as <-. constructor.
  - rewrite marshal_entries_cons in Hm.
    apply bind_ok in Hm. destruct Hm as (sk & _ & Hm). destruct (bad_map_key sk); [discriminate|].
    apply bind_ok in Hm. destruct Hm as (rest & Hr & Hm).
    apply bind_ok in Hm. destruct Hm as (kts & Hkts & Hm).
    apply bind_ok in Hm. destruct Hm as (vts & Hvts & Hm). injection Hm as <-.
    constructor; [|apply IH, Hr]. cbn [fst snd] in *.
    split; cbn [fst snd]; apply val1_bal; [apply (Hk _ _ _ Hkts)|apply (Hx _ _ _ Hvts)].
Qed.

Ltac leaf1 Hm := cbn [bind] in Hm; injection Hm as <-; apply val1_prefix, val1_leaf; reflexivity.

Theorem marshal_val1 : forall v, val1_of v.
Proof.
  induction v as [b|z|n|b|b|s|n s|n l IH|n es IH|l IH| |x IH| |t' x IH| |l IH|e] using gval_ind3;
    intros o t ts Hm.
  - cbn [marshal] in Hm. leaf1 Hm.
  - cbn [marshal] in Hm. destruct (underlying t); try discriminate Hm. destruct w; leaf1 Hm.
  - cbn [marshal] in Hm. destruct (underlying t); try discriminate Hm; try destruct w; leaf1 Hm.
  - cbn [marshal] in Hm. destruct (f32_is_nan b); leaf1 Hm.
  - cbn [marshal] in Hm. destruct (f64_is_nan b); leaf1 Hm.
  - cbn [marshal] in Hm. leaf1 Hm.
  - cbn [marshal] in Hm. leaf1 Hm.
  - apply marshal_list_ok in Hm. destruct Hm as (body & Hm & ->).
    apply val1_prefix, val1_comp; try reflexivity. eapply marshal_list_bal; eassumption.
  - rewrite marshal_GMap in Hm. apply bind_ok in Hm. destruct Hm as (ts0 & Hm & Hts). injection Hts as <-.
    destruct (kv_ty t) as [kt vt].
    apply bind_ok in Hm. destruct Hm as (es' & Hm & Hts). injection Hts as <-.
    apply val1_prefix, val1_comp; try reflexivity.
    apply entries_flat_bal, sort_entries_bal. eapply marshal_entries_bal; eassumption.
  - apply marshal_struct_ok in Hm. destruct Hm as (body & Hm & ->).
    apply val1_prefix, val1_comp; try reflexivity. eapply marshal_fields_bal; eassumption.
  - cbn [marshal] in Hm. leaf1 Hm.
  - apply marshal_ptr_ok in Hm. destruct Hm as (ts0 & Hm & ->). apply val1_prefix, (IH _ _ _ Hm).
  - cbn [marshal] in Hm. leaf1 Hm.
  - cbn [marshal] in Hm. apply bind_ok in Hm. destruct Hm as (ts0 & Hm & Hts). injection Hts as <-.
    apply val1_prefix, (IH _ _ _ Hm).
  - cbn [marshal] in Hm. destruct (ignore_funcs o); [leaf1 Hm|].
    cbn [bind] in Hm. injection Hm as <-. apply val1_prefix.
    apply (val1_comp KTuple KTupleEnd []); try reflexivity. apply bal_nil.
  - rewrite marshal_GFunc in Hm. apply bind_ok in Hm. destruct Hm as (ts0 & Hm & Hts). injection Hts as <-.
    destruct (ignore_funcs o); [injection Hm as <-; apply val1_prefix, val1_leaf; reflexivity|].
    apply bind_ok in Hm. destruct Hm as (body & Hm & Hts). injection Hts as <-.
    apply val1_prefix, val1_comp; try reflexivity. eapply marshal_outs_bal; eassumption.
  - cbn [marshal] in Hm. leaf1 Hm.
Qed.

Corollary marshal_skip o t v ts rest : marshal o t v = Ok ts -> skip_value 0 (ts ++ rest) = Ok rest.
Proof. intros H. apply (marshal_val1 v o t ts H). Qed.

Section ByName.
Variable o : copts.
Variable rec : rec_t.
Hypothesis Hname : forall s cur rest', rec TString cur (T KString (VStr s) :: rest') = Ok (GStr s, rest').

Variable rfs : list (bytes * bool * ty).
Variable depr : list bytes.
Hypothesis Hnonstrict : strict o = false.

Lemma struct_loop_byname : forall wvals, Forall (elem_ok default_opts rec) wvals ->
  forall wfs vals body,
  typed_fields wvals wfs = true -> names_nodup wfs = true ->
  forallb (fun f => wf_bytesb (fname f) && wf_ty (snd f)) wfs = true ->
  marshal_fields default_opts wvals wfs = Ok body ->
  (forall wf wv i ft, In (wf, wv) (combine wfs wvals) -> fexported wf = true ->
     find_field (fname wf) rfs 0 = Some (i, ft) ->
     ft = snd wf /\ nth i vals (zero ft) = zero ft /\
     simple_ty ft = true /\ no_ptr_to_nil wv = true) ->
  forall g rest, (length body < g)%nat ->
  struct_loop o rec g rfs depr vals (body ++ T KObjectEnd VNone :: rest)
  = Ok (apply_fields rfs (combine wfs wvals) vals, rest).
Proof.
  induction 1 as [|x l Hx _ IH]; intros wfs vals body Hty Hnd Hwf Hm Hcom g rest Hg.
  - destruct wfs as [|fd wfs]; [|discriminate Hty]. injection Hm as <-.
    destruct g as [|g]; [clear - Hg; cbn in Hg; lia|]. reflexivity.
  - destruct wfs as [|fd wfs]; [discriminate Hty|].
    rewrite typed_fields_cons in Hty.
    apply andb_true_iff in Hty. destruct Hty as [Htx Htl].
    cbn [forallb] in Hwf.
    apply andb_true_iff in Hwf. destruct Hwf as [Hwx Hwl]. apply andb_true_iff in Hwx. destruct Hwx as [_ Hwx].
    rewrite names_nodup_cons in Hnd. apply andb_true_iff in Hnd. destruct Hnd as [Hfr Hnd]. apply negb_true_iff in Hfr.
    apply marshal_fields_cons_inv in Hm.
    cbn [combine]. rewrite apply_fields_cons. unfold wstep. cbn [fst snd].
    destruct (fexported fd) eqn:Hex.
    + destruct Hm as (a & b & Ha & Hb & ->).
      destruct g as [|g]; [clear - Hg; cbn [length] in Hg; lia|]. cbn [app].
      assert (Hg' : (length b < g)%nat) by (clear - Hg; cbn [length] in Hg; rewrite app_length in Hg; lia).
      destruct (find_field (fname fd) rfs 0) as [[i ft]|] eqn:Hff.
      * destruct (Hcom fd x i ft (or_introl eq_refl) Hex Hff) as (-> & Hz & Hsx & Hnx).
        rewrite (struct_loop_known o rec Hname _ _ _ _ _ _ _ _ Hff). rewrite Hz, <- app_assoc.
        rewrite (Hx (snd fd) a _ Hwx Hsx Htx Hnx Ha), (normal_w_false x). cbn [bind fst snd].
        apply IH; try assumption.
        intros wf wv i' ft' Hin Hex' Hff'.
        destruct (Hcom wf wv i' ft' (or_intror Hin) Hex' Hff') as (-> & Hz' & Hrest). split; [reflexivity|].
        split; [|exact Hrest].
        rewrite nth_set_nth_other; [exact Hz'|]. intros ->.
        pose proof (find_field_inj _ _ _ _ _ _ _ Hff Hff') as Hn.
        apply in_combine_l in Hin. pose proof (existsb_false _ _ Hfr wf Hin) as Hne. cbn beta in Hne.
        rewrite Hn, bytes_eqb_refl in Hne. discriminate Hne.
      * rewrite <- app_assoc.
        rewrite (struct_loop_unknown_skipped o rec Hname _ _ _ _ _ _ _ Hnonstrict Hff (marshal_skip _ _ _ _ _ Ha)).
        apply IH; try assumption.
        intros wf wv i' ft' Hin. apply (Hcom wf wv i' ft'). right. exact Hin.
    + apply IH; try assumption.
      intros wf wv i' ft' Hin. apply (Hcom wf wv i' ft'). right. exact Hin.
Qed.

End ByName.

Lemma typed_fields_combine_fst : forall l fs, typed_fields l fs = true -> map fst (combine fs l) = fs.
Proof.
  induction l as [|x l IH]; intros [|fd fs] H; try reflexivity; try discriminate H.
  rewrite typed_fields_cons in H.
  apply andb_true_iff in H. destruct H as [_ H]. cbn [combine map fst]. f_equal. apply IH, H.
Qed.

(* C16.  Reading an object written from struct W into struct Rt (non-strict mode): fields are
   matched by name in any order, reader-only fields keep their content, writer-only fields are
   skipped whatever their type (maps, interfaces, funcs included).
   The reader's CURRENT content of a common field must be that field's zero value (see
   [by_name_refuted]), because unmarshalling MERGES into a non-zero target (slices are appended to,
   Nil leaves a non-nil pointer in place, ...).  The round-trip side conditions (simple type, no
   pointer to nil) are required of the common fields only. *)
Theorem by_name_fuel pf o R W Rt wfs rfs wvals rvals ts rest f :
  strict o = false ->
  underlying W = TStruct wfs -> underlying Rt = TStruct rfs ->
  wf_ty W = true -> wf_ty Rt = true ->
  has_type W (GStruct wvals) = true ->
  length rvals = length rfs ->
  marshal default_opts W (GStruct wvals) = Ok ts ->
  (forall wf wv i ft, In (wf, wv) (combine wfs wvals) -> fexported wf = true ->
     find_field (fname wf) rfs 0 = Some (i, ft) ->
     ft = snd wf /\ nth i rvals (zero ft) = zero ft /\
     simple_ty ft = true /\ no_ptr_to_nil wv = true) ->
  (2 * vsize (GStruct wvals) < f)%nat ->
  unm pf f o R Rt (GStruct rvals) (ts ++ rest) = Ok (GStruct (assign_by_name wfs rfs wvals rvals), rest).
Proof.
  intros Hns HW HR Hwf HwfR Hty Hlen Hm Hcom Hf.
  pose proof (wf_underlying _ Hwf) as Hwu. pose proof (wf_underlying _ HwfR) as HwR.
  rewrite HW in Hwu. rewrite HR in HwR.
  rewrite wf_ty_struct in Hwu, HwR. apply andb_true_iff in Hwu, HwR.
  destruct Hwu as [Hwfs Hnd]. destruct HwR as [_ HndR].
  rewrite has_type_struct, HW in Hty.
  apply marshal_struct_ok in Hm. destruct Hm as (body & Hm & ->). unfold fields_of in Hm. rewrite HW in Hm.
  rewrite vsize_struct in Hf.
  destruct f as [|[|f']]; [clear - Hf; lia|clear - Hf; lia|].
  assert (Hstep : unm pf (S f') o R Rt (GStruct rvals) (T KObject VNone :: body ++ T KObjectEnd VNone :: rest)
                  = Ok (GStruct (assign_by_name wfs rfs wvals rvals), rest)).
  { rewrite (unm_struct_step pf o R _ _ _ _ _ HR).
    assert (Hel : Forall (elem_ok default_opts (unm pf f' o R)) wvals).
    { apply rt_elem_ok; [|clear - Hf; lia]. apply Forall_forall. intros x _. apply roundtrip_w. }
    rewrite (struct_loop_byname o (unm pf f' o R) (unm_name_fuel pf o R f' ltac:(clear - Hf; lia)) rfs (depr_of Rt) Hns wvals Hel wfs rvals body
               Hty Hnd Hwfs Hm Hcom).
    - cbn [bind fst snd]. rewrite assign_by_name_l. rewrite apply_assign; [reflexivity|exact HndR| |exact Hlen].
      rewrite (typed_fields_combine_fst _ _ Hty). exact Hnd.
    - rewrite app_length. cbn [length]. clear. lia. }
  rewrite <- !app_assoc. cbn [app]. rewrite <- !app_assoc. cbn [app].
  destruct (reg_prefix_cases W) as [E|[n E]]; rewrite E; cbn [app].
  - apply (unm_fuel_mono pf o R (S f') _ _ _ _ Hstep); [discriminate|]. apply Nat.le_succ_diag_r.
  - rewrite unm_skip; [exact Hstep|reflexivity|exact (struct_concrete Rt rfs HR)].
Qed.

Theorem by_name_partial pf o R W Rt wfs rfs wvals rvals ts rest :
  strict o = false ->
  underlying W = TStruct wfs -> underlying Rt = TStruct rfs ->
  wf_ty W = true -> wf_ty Rt = true ->
  has_type W (GStruct wvals) = true ->
  length rvals = length rfs ->
  marshal default_opts W (GStruct wvals) = Ok ts ->
  (forall wf wv i ft, In (wf, wv) (combine wfs wvals) -> fexported wf = true ->
     find_field (fname wf) rfs 0 = Some (i, ft) ->
     ft = snd wf /\ nth i rvals (zero ft) = zero ft /\
     simple_ty ft = true /\ no_ptr_to_nil wv = true) ->
  exists f, unm pf f o R Rt (GStruct rvals) (ts ++ rest)
            = Ok (GStruct (assign_by_name wfs rfs wvals rvals), rest).
Proof.
  intros. exists (S (2 * vsize (GStruct wvals))). eapply by_name_fuel; try eassumption. apply Nat.lt_succ_diag_r.
Qed.

Theorem strict_unknown_rejected pf f o R t fs cur name rest :
  strict o = true -> underlying t = TStruct fs ->
  find_field name fs 0 = None -> existsb (bytes_eqb name) (depr_of t) = false ->
  unm pf (S (S f)) o R t cur (T KObject VNone :: T KString (VStr name) :: rest) = Err EUnknownField.
Proof.
  intros Hs Hut Hf Hd. rewrite (unm_struct_step pf o R _ _ _ _ _ Hut).
  rewrite struct_loop_strict_unknown; try assumption; [reflexivity|].
  intros. apply unm_name.
Qed.

(* the same at any position in the object: stated on the loop *)
Theorem strict_unknown_rejected_loop pf f o R g fs depr vals name rest :
  strict o = true -> find_field name fs 0 = None -> existsb (bytes_eqb name) depr = false ->
  struct_loop o (unm pf (S f) o R) (S g) fs depr vals (T KString (VStr name) :: rest) = Err EUnknownField.
Proof. intros. apply struct_loop_strict_unknown; try assumption. intros. apply unm_name. Qed.

(* a deprecated name is skipped in either mode *)
Theorem strict_deprecated_skipped pf f o R g fs depr vals name ot wt wv a rest :
  find_field name fs 0 = None -> existsb (bytes_eqb name) depr = true ->
  marshal ot wt wv = Ok a ->
  struct_loop o (unm pf (S f) o R) (S g) fs depr vals (T KString (VStr name) :: a ++ rest)
  = struct_loop o (unm pf (S f) o R) g fs depr vals rest.
Proof.
  intros Hf Hd Ha. eapply struct_loop_strict_deprecated; try eassumption; [intros; apply unm_name|].
  eapply marshal_skip, Ha.
Qed.

Theorem unknown_field_skipped pf f o R g fs depr vals name ot wt wv a rest :
  strict o = false -> find_field name fs 0 = None ->
  marshal ot wt wv = Ok a ->
  struct_loop o (unm pf (S f) o R) (S g) fs depr vals (T KString (VStr name) :: a ++ rest)
  = struct_loop o (unm pf (S f) o R) g fs depr vals rest.
Proof.
  intros Hs Hf Ha. eapply struct_loop_unknown_skipped; try eassumption; [intros; apply unm_name|].
  eapply marshal_skip, Ha.
Qed.

(* writer: A int8, B []bool, C string and M map[string]any (both unknown to the reader), d (unexported),
   E *bool; registered *)
Definition ExWfs : list (bytes * bool * ty) :=
  [([65], true, TInt W8); ([66], true, TSlice TBool); ([67], true, TString); ([100], false, TBool); ([69], true, TPtr TBool);
   ([77], true, TMap TString TAny)].
Definition ExW : ty := TNamed [87] true [] (TStruct ExWfs).
Definition ex_wvals : list gval :=
  [GInt 5; GList false [GBool true]; GStr [1; 2]; GBool true; GPtr None;
   GMap false [(GStr [1], GAny (Some (TSlice TBool, GList false [GBool true])))]].
(* reader: E, Z (absent from the writer), B, A, c (unexported), in another order *)
Definition ExRfs : list (bytes * bool * ty) :=
  [([69], true, TPtr TBool); ([90], true, TInt W16); ([66], true, TSlice TBool); ([65], true, TInt W8); ([67], false, TString)].
Definition ExR : ty := TStruct ExRfs.
Definition ex_rvals : list gval := [GPtr None; GInt 77; GList true []; GInt 0; GStr [9]].
Definition ex_rvals_dirty : list gval := [GPtr (Some (GBool false)); GInt 77; GList false [GBool false]; GInt 3; GStr [9]].

Example by_name_ex_assign :
  assign_by_name ExWfs ExRfs ex_wvals ex_rvals = [GPtr None; GInt 77; GList false [GBool true]; GInt 5; GStr [9]].
Proof. vm_compute. reflexivity. Qed.

Lemma ex_common wf wv i ft :
  In (wf, wv) (combine ExWfs ex_wvals) -> fexported wf = true -> find_field (fname wf) ExRfs 0 = Some (i, ft) ->
  ft = snd wf /\ nth i ex_rvals (zero ft) = zero ft /\ simple_ty ft = true /\ no_ptr_to_nil wv = true.
Proof.
  intros Hin Hex Hff. cbn in Hin.
  repeat (destruct Hin as [Hin|Hin]; [injection Hin as <- <-; vm_compute in Hff; try discriminate Hff;
          injection Hff as <- <-; repeat split; reflexivity|]). contradiction.
Qed.

Example by_name_ex pf o R ts rest :
  strict o = false -> marshal default_opts ExW (GStruct ex_wvals) = Ok ts ->
  exists f, unm pf f o R ExR (GStruct ex_rvals) (ts ++ rest)
            = Ok (GStruct [GPtr None; GInt 77; GList false [GBool true]; GInt 5; GStr [9]], rest).
Proof.
  intros Hs Hm. rewrite <- by_name_ex_assign.
  apply (by_name_partial pf o R ExW ExR ExWfs ExRfs); try assumption; try (vm_compute; reflexivity).
  exact ex_common.
Qed.

(* the unrestricted statement (arbitrary current content in the reader's common fields) is false *)
Definition ex_ts : list token :=
  Eval vm_compute in match marshal default_opts ExW (GStruct ex_wvals) with Ok ts => ts | _ => [] end.

Theorem by_name_refuted :
  exists pf o R W Rt wfs rfs wvals rvals ts,
    strict o = false /\ underlying W = TStruct wfs /\ underlying Rt = TStruct rfs /\
    wf_ty W = true /\ wf_ty Rt = true /\ simple_ty Rt = true /\
    has_type W (GStruct wvals) = true /\ has_type Rt (GStruct rvals) = true /\
    no_ptr_to_nil (GStruct wvals) = true /\ no_ptr_to_nil (GStruct rvals) = true /\
    (forall wf wv i ft, In (wf, wv) (combine wfs wvals) -> fexported wf = true ->
       find_field (fname wf) rfs 0 = Some (i, ft) ->
       ft = snd wf /\ simple_ty ft = true /\ no_ptr_to_nil wv = true) /\
    marshal default_opts W (GStruct wvals) = Ok ts /\
    forall f, unm pf f o R Rt (GStruct rvals) (ts ++ []) <> Ok (GStruct (assign_by_name wfs rfs wvals rvals), []).
Proof.
  exists (fun _ _ => None), default_opts, [], ExW, ExR, ExWfs, ExRfs, ex_wvals, ex_rvals_dirty, ex_ts.
  split; [reflexivity|]. split; [reflexivity|]. split; [reflexivity|].
  do 7 (split; [vm_compute; reflexivity|]).
  split.
  { intros wf wv i ft Hin Hex Hff. apply (ex_common _ _ _ _ Hin Hex) in Hff. tauto. }
  split; [vm_compute; reflexivity|].
  intros f H. pose proof (unm_only _ _ _ _ _ _ _ _ H ltac:(discriminate) 20%nat) as E.
  vm_compute in E. destruct E as [E|E]; discriminate E.
Qed.

(* strict mode on the same stream: C and M are unknown to the reader; declaring them deprecated
   (SBDeprecatedFields) makes the strict reader skip them *)
Example strict_ex :
  forall ts, marshal default_opts ExW (GStruct ex_wvals) = Ok ts ->
  unm (fun _ _ => None) 20 (Opts false true false) [] ExR (GStruct ex_rvals) ts = Err EUnknownField /\
  unm (fun _ _ => None) 20 (Opts false true false) [] (TNamed [82] false [[67]; [77]] ExR) (GStruct ex_rvals) ts
  = Ok (GStruct [GPtr None; GInt 77; GList false [GBool true]; GInt 5; GStr [9]], []).
Proof. intros ts H. vm_compute in H. injection H as <-. split; vm_compute; reflexivity. Qed.

(* one audit for all: the large [unm] term is traversed once *)
Definition UnmarshalP_main_theorems :=
  (unm_S, unm_fuel_mono, unm_total_bound, unm_total, unm_total_additive_refuted, unm_suffix, unm_consumes,
   roundtrip_all, roundtrip_simple_fuel, roundtrip_simple, roundtrip_simple_exact,
   roundtrip_regptr_nil, roundtrip_regptr_nonnil, roundtrip_regtime, roundtrip_ex_thm,
   marshal_val1, marshal_skip, apply_assign, by_name_fuel, by_name_partial, by_name_refuted, by_name_ex,
   strict_unknown_rejected, strict_unknown_rejected_loop, strict_deprecated_skipped, unknown_field_skipped,
   scalar_by_set_scalar, scalar_mismatch, scalar_match,
   nil_leaves_untouched, end_token_rejected, end_token_time, empty_is_eof, empty_time_mismatch).
Print Assumptions UnmarshalP_main_theorems.
