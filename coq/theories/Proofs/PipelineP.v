(* Proofs/PipelineP.v — C13: every one of the 16 identity-preserving stage kinds of the fuzz
   harness (Spec/Pipeline.v) leaves the stream of a well-formed, reference-free value
   unchanged; hence so does every pipeline of them, and the hash of the output is the
   Merkle hash of the value. *)
From Coq Require Import List NArith ZArith Bool Arith Lia ZifyBool ZifyNat ZifyN.
From SbModel Require Import Base.Bytes Base.Tokens Base.Values Model.Codec Model.Hash Model.Tree
  Model.Sinks Model.Procs Model.Types Spec.DecodeGrammar Spec.TreeSpec Spec.StreamSpec Spec.Pipeline.
From SbModel Require Import Proofs.CodecP Proofs.HashP Proofs.TreeP Proofs.SinksP Proofs.StreamsP.
Import ListNotations.

Lemma stage_tokens H R pf ts : run_stage H R pf StTokens ts = Ok ts.
Proof. reflexivity. Qed.

Lemma stage_sink_marshal H R pf ts : run_stage H R pf StSinkMarshal ts = Ok ts.
Proof. reflexivity. Qed.

Lemma stage_embedded H R pf ts : run_stage H R pf StEmbedded ts = Ok ts.
Proof. reflexivity. Qed.

(* stages through the schema-less decoder: identity under the C11 hypothesis *)
Lemma stage_any H R pf ts : any_roundtrip R pf ts = Ok ts -> run_stage H R pf StAny ts = Ok ts.
Proof. intros Hany. exact Hany. Qed.

Lemma stage_tee3 H R pf pick ts : any_roundtrip R pf ts = Ok ts -> run_stage H R pf (StTee3 pick) ts = Ok ts.
Proof. intros Hany. exact Hany. Qed.

Lemma stage_tuple_wrap H R pf ts : any_roundtrip R pf ts = Ok ts -> run_stage H R pf StTupleWrap ts = Ok ts.
Proof. intros Hany. cbn [run_stage]. rewrite Hany. cbn [bind]. exact Hany. Qed.

Lemma codec_roundtrip_ok ts : Forall (wf_enc default_maxlen) ts -> codec_roundtrip ts = Ok ts.
Proof. intros Henc. unfold codec_roundtrip. rewrite (decode_encode default_maxlen ts Henc). reflexivity. Qed.

Lemma stage_codec H R pf ts : Forall (wf_enc default_maxlen) ts -> run_stage H R pf StCodec ts = Ok ts.
Proof. intros Henc. cbn [run_stage]. apply codec_roundtrip_ok. exact Henc. Qed.

Lemma stage_tee_codec H R pf ts : Forall (wf_enc default_maxlen) ts -> run_stage H R pf StTeeCodec ts = Ok ts.
Proof. intros Henc. cbn [run_stage]. apply codec_roundtrip_ok. exact Henc. Qed.

Definition it_proc (ts : list token) : proc := PIterStream (PTokens ts PNil) PNil.
Definition tee_proc (ts : list token) : proc := PTee (PTokens ts PNil) [] PNil.

Lemma next_nil g lg : next (S g) PNil lg = POk None PNil lg.
Proof. reflexivity. Qed.

Lemma it_next_cons g t r lg :
  next (S (S g)) (it_proc (t :: r)) lg = POk (Some t) (it_proc r) lg.
Proof.
  unfold it_proc. rewrite next_S by discriminate. rewrite pstep_iter.
  rewrite nextG_S by discriminate. rewrite pstep_tokens_cons. cbn [app]. rewrite app_nil_r. reflexivity.
Qed.

Lemma it_next_nil g lg : next (S (S (S g))) (it_proc []) lg = POk None PNil lg.
Proof.
  unfold it_proc. rewrite next_S by discriminate. rewrite pstep_iter.
  rewrite nextG_S by discriminate. rewrite pstep_tokens_nil. cbn [app nextG].
  rewrite next_nil, app_nil_r. reflexivity.
Qed.

Lemma run_S f p :
  run (S f) p = match next (S f) p [] with
                | PErr e lg => ([], e, lg)
                | POk None _ lg => ([], ENone, lg)
                | POk (Some t) p' lg => let '(ts, e, lg') := run f p' in (t :: ts, e, lg ++ lg')
                end.
Proof. reflexivity. Qed.

(* a processor that hands the tokens of its source on one by one yields exactly those tokens;
   three units of fuel beyond one per token are enough (run_tokens gives nine) *)
Lemma run_pass (wrap : list token -> proc) :
  (forall g t r lg, next (S (S g)) (wrap (t :: r)) lg = POk (Some t) (wrap r) lg) ->
  (forall g lg, next (S (S (S g))) (wrap []) lg = POk None PNil lg) ->
  forall ts fuel, length ts + 3 <= fuel -> run fuel (wrap ts) = (ts, ENone, []).
Proof.
  intros Hcons Hnil. induction ts as [|t r IH]; intros fuel Hf.
  - destruct fuel as [|[|[|g]]]; cbn [length] in Hf; try lia.
    rewrite run_S, Hnil. reflexivity.
  - destruct fuel as [|[|g]]; cbn [length] in Hf; try lia.
    rewrite run_S, Hcons. rewrite IH by lia. reflexivity.
Qed.

Lemma run_it ts : forall fuel, length ts + 3 <= fuel -> run fuel (it_proc ts) = (ts, ENone, []).
Proof. exact (run_pass it_proc it_next_cons it_next_nil ts). Qed.

Lemma tee_next_cons g t r lg :
  next (S (S g)) (tee_proc (t :: r)) lg = POk (Some t) (tee_proc r) lg.
Proof.
  unfold tee_proc. rewrite next_S by discriminate. rewrite pstep_tee.
  rewrite nextG_S by discriminate. rewrite pstep_tokens_cons. cbn [app length tee_pass].
  rewrite app_nil_r. reflexivity.
Qed.

Lemma tee_next_nil g lg : next (S (S (S g))) (tee_proc []) lg = POk None PNil lg.
Proof.
  unfold tee_proc. rewrite next_S by discriminate. rewrite pstep_tee.
  rewrite nextG_S by discriminate. rewrite pstep_tokens_nil. cbn [app nextG length tee_pass].
  rewrite next_nil, app_nil_r. reflexivity.
Qed.

Lemma run_tee ts : forall fuel, length ts + 3 <= fuel -> run fuel (tee_proc ts) = (ts, ENone, []).
Proof. exact (run_pass tee_proc tee_next_cons tee_next_nil ts). Qed.

Lemma stage_iter_stream H R pf ts : run_stage H R pf StIterStream ts = Ok ts.
Proof.
  cbn [run_stage]. unfold run_tokens. change (PIterStream (PTokens ts PNil) PNil) with (it_proc ts).
  rewrite run_it by lia. reflexivity.
Qed.

Lemma stage_tee H R pf ts : run_stage H R pf StTee ts = Ok ts.
Proof.
  cbn [run_stage]. unfold run_tokens. change (PTee (PTokens ts PNil) [] PNil) with (tee_proc ts).
  rewrite run_tee by lia. reflexivity.
Qed.

Definition log_tokens (lg : list delivery) : list token :=
  flat_map (fun d : delivery => match snd d with Some t => [t] | None => [] end) lg.

Lemma log_tokens_calls id ts :
  log_tokens (map (fun c => (id, c)) (map Some ts ++ [None])) = ts.
Proof.
  unfold log_tokens. induction ts as [|t r IH]; [reflexivity|].
  cbn [map app flat_map snd]. rewrite IH. reflexivity.
Qed.

Lemma log_tokens_some id ts : log_tokens (map (fun t => (id, Some t)) ts) = ts.
Proof.
  unfold log_tokens. induction ts as [|t r IH]; [reflexivity|].
  cbn [map app flat_map snd]. rewrite IH. reflexivity.
Qed.

Lemma stage_collect H R pf ts : run_stage H R pf StCollect ts = Ok ts.
Proof.
  cbn [run_stage]. destruct (rec_run 0 ts ToEnd []) as [rest E]. rewrite E.
  cbn [app expected]. f_equal. apply (log_tokens_calls 0 ts).
Qed.

Lemma stage_collect_value H R pf v : wf_value v = true ->
  run_stage H R pf StCollectValue (flatten v) = Ok (flatten v).
Proof.
  intros Hwf. cbn [run_stage]. unfold calls_of. rewrite (collect_value 0 v [None] Hwf).
  f_equal. apply (log_tokens_some 0).
Qed.

Lemma stage_tree H R pf v : wf_value v = true -> run_stage H R pf StTree (flatten v) = Ok (flatten v).
Proof.
  intros Hwf. cbn [run_stage]. rewrite (build_tree_of v Hwf). cbn [of_sum bind].
  unfold plain_tree. rewrite iter_tree_of. reflexivity.
Qed.

Lemma stage_tree_func H R pf v : wf_value v = true -> run_stage H R pf StTreeFunc (flatten v) = Ok (flatten v).
Proof.
  intros Hwf. cbn [run_stage]. rewrite (build_tree_of v Hwf). cbn [of_sum bind].
  unfold plain_tree. rewrite iter_func_none. reflexivity.
Qed.

Lemma mhash_nonempty H v : (forall x, H x <> []) -> ref_free v = true -> mhash H v <> [].
Proof. intros HHne Hrf. rewrite (mhash_preimage H v Hrf). apply HHne. Qed.

Lemma find_root H v : wf_value v = true -> mhash H v <> [] ->
  find_by_hash H (flatten v) (mhash H v) = inl (flatten v).
Proof.
  intros Hwf Hne. rewrite (find_by_hash_eq H v _ Hwf), find_node_root.
  rewrite (proj2 (hit_some _ _) (conj eq_refl Hne)), iter_full_tree. reflexivity.
Qed.

Lemma stage_find_root H R pf v : wf_value v = true -> ref_free v = true -> (forall x, H x <> []) ->
  run_stage H R pf StFindRoot (flatten v) = Ok (flatten v).
Proof.
  intros Hwf Hrf HHne. cbn [run_stage]. rewrite (sink_hash_is_merkle H v Hwf). cbn [of_sum bind].
  rewrite (find_root H v Hwf (mhash_nonempty H v HHne Hrf)). reflexivity.
Qed.

(* every sub-value of v with the stream index of its first token (v itself has index i), pre-order *)
Fixpoint subs_at (i : nat) (v : value) : list (nat * value) :=
  (i, v) :: match v with
            | Leaf _ => []
            | Comp _ _ items =>
                (fix go (j : nat) (l : list value) : list (nat * value) :=
                   match l with
                   | [] => []
                   | x :: r => subs_at j x ++ go (j + vlen x)%nat r
                   end) (S i) items
            | Named _ v' => subs_at (S i) v'
            end.

Fixpoint subs_items (j : nat) (l : list value) : list (nat * value) :=
  match l with
  | [] => []
  | x :: r => subs_at j x ++ subs_items (j + vlen x) r
  end.

(* the inner fix of subs_at captures no variable, so subs_items is that fix under a name and the
   two sides are convertible (TreeP.subs_of and full_subs take the i, kc their loops capture as
   arguments: tree_of_comp and full_tree_comp need an induction) *)
Lemma subs_at_comp i ko kc items :
  subs_at i (Comp ko kc items) = (i, Comp ko kc items) :: subs_items (S i) items.
Proof. reflexivity. Qed.

(* Spec/Pipeline.v states for itself what TreeP.ref_fn is *)
Lemma ref_fn_spec sel : Pipeline.ref_fn sel = TreeP.ref_fn sel.
Proof. reflexivity. Qed.

Lemma in_natb_In i l : in_natb i l = true <-> In i l.
Proof.
  unfold in_natb. rewrite existsb_exists. split.
  - intros (x & Hx & E). apply Nat.eqb_eq in E. subst x. exact Hx.
  - intros Hi. exists i. split; [exact Hi | apply Nat.eqb_refl].
Qed.

Lemma subs_at_head i v : In (i, v) (subs_at i v).
Proof. destruct v; left; reflexivity. Qed.

Lemma selected_subs sel v : forall i j s, In (j, s) (selected sel i v) ->
  In (j, s) (subs_at i v) /\ in_natb j sel = true.
Proof.
  induction v as [t|ko kc items IH|n v IH] using value_ind2; intros i j s;
    [cbn [selected] | rewrite selected_comp | cbn [selected]];
    destruct (existsb (Nat.eqb i) sel) eqn:Ei;
    (* a selected root is not descended into: the list is [(i, v)] *)
    try (intros [[= <- <-]|[]]; split; [apply subs_at_head | exact Ei]).
  - intros [].
  - rewrite subs_at_comp. intros Hin.
    enough (In (j, s) (subs_items (S i) items) /\ in_natb j sel = true) as [Hs Hj];
      [split; [right; exact Hs | exact Hj]|].
    revert Hin. generalize (S i).
    induction IH as [|x r Hx _ IHr]; intros j0; cbn [sel_items subs_items]; [intros []|].
    intros Hin. apply in_app_or in Hin.
    destruct Hin as [Hin|Hin]; [destruct (Hx _ _ _ Hin) as [Hs Hj] | destruct (IHr _ Hin) as [Hs Hj]];
      (split; [apply in_or_app | exact Hj]); [left | right]; exact Hs.
  - intros Hin. destruct (IH _ _ _ Hin) as [Hs Hj]. split; [right; exact Hs | exact Hj].
Qed.

Lemma subs_at_subvalue v : forall i j s, In (j, s) (subs_at i v) -> subvalue s v.
Proof.
  induction v as [t|ko kc items IH|n v IH] using value_ind2; intros i j s;
    [cbn [subs_at] | rewrite subs_at_comp | cbn [subs_at]]; (intros [[= <- <-]|Hin]; [constructor|]).
  - destruct Hin.
  - enough (Exists (subvalue s) items) as Hex.
    { apply Exists_exists in Hex. destruct Hex as (x & Hx & Hs). exact (sv_item s ko kc items x Hx Hs). }
    revert Hin. generalize (S i).
    induction IH as [|x r Hx _ IHr]; intros j0; cbn [subs_items]; [intros []|].
    intros Hin. apply in_app_or in Hin.
    destruct Hin as [Hin|Hin]; [left; exact (Hx _ _ _ Hin) | right; exact (IHr _ Hin)].
  - apply sv_named. exact (IH _ _ _ Hin).
Qed.

Lemma all_nodes_eq t : all_nodes t = t :: flat_map all_nodes (t_subs t).
Proof. destruct t; reflexivity. Qed.

Lemma all_nodes_head t : In t (all_nodes t).
Proof. rewrite all_nodes_eq. left. reflexivity. Qed.

Section Nodes.
Variable H : bytes -> bytes.

Lemma subs_nodes v : forall i j s, In (j, s) (subs_at i v) ->
  In (full_tree H j s) (all_nodes (full_tree H i v)).
Proof.
  induction v as [t|ko kc items IH|n v IH] using value_ind2; intros i j s;
    [cbn [subs_at] | rewrite subs_at_comp | cbn [subs_at]]; (intros [[= <- <-]|Hin]; [apply all_nodes_head|]).
  - destruct Hin.
  - rewrite full_tree_comp, all_nodes_eq. cbn [t_subs]. right.
    revert Hin. generalize (S i).
    induction IH as [|x r Hx _ IHr]; intros j0; cbn [subs_items full_subs flat_map]; [intros []|].
    intros Hin. apply in_app_or in Hin. apply in_or_app.
    destruct Hin as [Hin|Hin]; [left; exact (Hx _ _ _ Hin) | right; exact (IHr _ Hin)].
  - cbn [full_tree]. rewrite all_nodes_eq. cbn [t_subs flat_map]. right.
    apply in_or_app. left. exact (IH _ _ _ Hin).
Qed.

Definition node_of (p : nat * value) : tree := full_tree H (fst p) (snd p).

Lemma nodes_char v : forall i n, In n (all_nodes (full_tree H i v)) ->
  In n (map node_of (subs_at i v)) \/ In (t_idx n) (end_indices i v).
Proof.
  induction v as [t|ko kc items IH|nm v IH] using value_ind2; intros i n; rewrite all_nodes_eq;
    [cbn [subs_at] | rewrite subs_at_comp | cbn [subs_at]]; (intros [<-|Hin]; [left; left; reflexivity|]).
  - destruct Hin.
  - rewrite full_tree_comp in Hin. cbn [t_subs] in Hin. rewrite end_indices_comp.
    enough (In n (map node_of (subs_items (S i) items)) \/ In (t_idx n) (end_items (S i) items)) as [Hv|He];
      [left; right; exact Hv | right; exact He |].
    revert Hin. generalize (S i).
    induction IH as [|x r Hx _ IHr]; intros j0; cbn [subs_items full_subs flat_map end_items all_nodes map].
    + intros [<-|[]]. right. left. reflexivity.
    + rewrite map_app. intros Hin. apply in_app_or in Hin.
      destruct Hin as [Hin|Hin]; [apply Hx in Hin | apply IHr in Hin];
        (destruct Hin as [Hv|He]; [left | right]; apply in_or_app); auto.
  - cbn [full_tree t_subs flat_map] in Hin. rewrite app_nil_r in Hin. apply IH in Hin.
    destruct Hin as [Hv|He]; [left; right; exact Hv | right; exact He].
Qed.

(* H does not collide between a selected (outermost) sub-value and any sub-value that has a
   selected index: FindByHash-style lookup among the selected nodes may return ANY of them
   that carries the wanted hash *)
Definition no_collision (sel : list nat) (v : value) : Prop :=
  forall j1 s1 j2 s2, In (j1, s1) (subs_at 0 v) -> In j1 sel -> In (j2, s2) (selected sel 0 v) ->
    mhash H s1 = mhash H s2 -> flatten s1 = flatten s2.

Lemma resolver_selected sel v :
  (forall j, In j sel -> ~ In j (end_indices 0 v)) -> no_collision sel v ->
  forall j s, In (j, s) (selected sel 0 v) ->
    resolver_of (all_nodes (full_tree H 0 v)) sel (mhash H s) = RStream (flatten s).
Proof.
  intros Hend Hnc j s Hsel. unfold resolver_of.
  destruct (selected_subs sel v 0 j s Hsel) as [Hsub Hj].
  destruct (find _ _) as [n|] eqn:Ef.
  - apply find_some in Ef. destruct Ef as [Hn Hp]. apply andb_true_iff in Hp. destruct Hp as [Hi Hh].
    apply in_natb_In in Hi.
    destruct (nodes_char v 0 n Hn) as [Hv|He]; [|exfalso; exact (Hend _ Hi He)].
    apply in_map_iff in Hv. destruct Hv as ((j' & s') & <- & Hjs'). unfold node_of in Hi, Hh |- *. cbn [fst snd] in *.
    rewrite t_idx_full in Hi. rewrite t_hash_full in Hh. cbn [bytes_eq_opt] in Hh.
    apply BytesP.bytes_eqb_eq in Hh. rewrite iter_full_tree.
    rewrite (Hnc j' s' j s Hjs' Hi Hsel Hh). reflexivity.
  - exfalso. pose proof (find_none _ _ Ef (full_tree H j s) (subs_nodes v 0 j s Hsub)) as Hf.
    cbv beta in Hf. rewrite t_idx_full, t_hash_full, Hj in Hf. cbn [bytes_eq_opt andb] in Hf.
    assert (Hb : bytes_eqb (mhash H s) (mhash H s) = true) by (apply BytesP.bytes_eqb_eq; reflexivity).
    rewrite Hb in Hf. discriminate Hf.
Qed.

Lemma stage_subst_deref R pf sel v : wf_value v = true -> ref_free v = true ->
  (forall j, In j sel -> ~ In j (end_indices 0 v)) -> no_collision sel v ->
  run_stage H R pf (StSubstDeref sel) (flatten v) = Ok (flatten v).
Proof.
  intros Hwf Hrf Hend Hnc. cbn [run_stage]. rewrite (build_tree_of v Hwf). cbn [of_sum bind].
  rewrite (fill_hash_full H v Hwf 0). cbn [of_sum bind].
  rewrite ref_fn_spec, (iter_func_subst H sel 0 v Hend).
  rewrite (deref_restores_partial H _ sel 0 v Hwf Hrf (resolver_selected sel v Hend Hnc)).
  reflexivity.
Qed.

(* no_collision quantifies over two finite lists: the sub-values with a selected index and the
   outermost selected ones *)
Lemma no_collision_cases sel v cands sels :
  filter (fun c => in_natb (fst c) sel) (subs_at 0 v) = cands -> selected sel 0 v = sels ->
  Forall (fun c => Forall (fun s => mhash H (snd c) = mhash H (snd s) -> flatten (snd c) = flatten (snd s)) sels)
         cands ->
  no_collision sel v.
Proof.
  intros <- <- HF j1 s1 j2 s2 H1 Hj H2. rewrite Forall_forall in HF.
  assert (Hc : In (j1, s1) (filter (fun c => in_natb (fst c) sel) (subs_at 0 v))).
  { apply filter_In. split; [exact H1 | apply in_natb_In, Hj]. }
  specialize (HF _ Hc). rewrite Forall_forall in HF. exact (HF _ H2).
Qed.

Lemma no_collision_subvalues sel v :
  (forall s1 s2, subvalue s1 v -> subvalue s2 v -> mhash H s1 = mhash H s2 -> flatten s1 = flatten s2) ->
  no_collision sel v.
Proof.
  intros Hc j1 s1 j2 s2 H1 _ H2 Hm. apply Hc; [| |exact Hm].
  - exact (subs_at_subvalue v 0 j1 s1 H1).
  - exact (subs_at_subvalue v 0 j2 s2 (proj1 (selected_subs sel v 0 j2 s2 H2))).
Qed.

Lemma subvalue_ref_free s v : subvalue s v -> ref_free v = true -> ref_free s = true.
Proof.
  induction 1 as [v | s ko kc items x Hin _ IH | s n v _ IH]; intros Hrf.
  - assumption.
  - apply IH. cbn [ref_free] in Hrf. rewrite forallb_forall in Hrf. apply Hrf. assumption.
  - apply IH. exact Hrf.
Qed.

Lemma no_collision_inj L sel v : inj H -> fixed_len H L -> 0 < L ->
  wf_value v = true -> ref_free v = true -> no_collision sel v.
Proof.
  intros Hinj HL Hpos Hwf Hrf. apply no_collision_subvalues. intros s1 s2 Hs1 Hs2 Hm.
  apply (mhash_injective H L s1 s2 Hinj HL Hpos);
    eauto using subvalue_wf, subvalue_ref_free.
Qed.

End Nodes.

Definition stage_side (H : bytes -> bytes) (v : value) (s : stage) : Prop :=
  match s with
  | StSubstDeref sel => (forall j, In j sel -> ~ In j (end_indices 0 v)) /\ no_collision H sel v
  | _ => True
  end.

Theorem stage_identity H R pf v s :
  wf_value v = true -> ref_free v = true ->
  Forall (wf_enc default_maxlen) (flatten v) ->
  (forall x, H x <> []) ->
  any_roundtrip R pf (flatten v) = Ok (flatten v) ->
  stage_side H v s ->
  run_stage H R pf s (flatten v) = Ok (flatten v).
Proof.
  intros Hwf Hrf Henc HHne Hany Hside. destruct s as [| | | | |sel| | | |pick| | | | | |].
  - apply stage_any; exact Hany.
  - apply stage_codec; exact Henc.
  - apply stage_tokens.
  - apply stage_tree; exact Hwf.
  - apply stage_tree_func; exact Hwf.
  - destruct Hside as [Hend Hnc]. apply stage_subst_deref; assumption.
  - apply stage_iter_stream.
  - apply stage_embedded.
  - apply stage_find_root; assumption.
  - apply stage_tee3; exact Hany.
  - apply stage_tee.
  - apply stage_tee_codec; exact Henc.
  - apply stage_collect.
  - apply stage_collect_value; exact Hwf.
  - apply stage_sink_marshal.
  - apply stage_tuple_wrap; exact Hany.
Qed.

Theorem pipeline_identity H R pf v p :
  wf_value v = true -> ref_free v = true ->
  Forall (wf_enc default_maxlen) (flatten v) ->
  (forall x, H x <> []) ->
  any_roundtrip R pf (flatten v) = Ok (flatten v) ->
  Forall (stage_side H v) p ->
  run_pipeline H R pf p (flatten v) = Ok (flatten v).
Proof.
  intros Hwf Hrf Henc HHne Hany Hside. induction Hside as [|s r Hs _ IH]; [reflexivity|].
  cbn [run_pipeline]. rewrite (stage_identity H R pf v s Hwf Hrf Henc HHne Hany Hs). cbn [bind]. exact IH.
Qed.

Corollary pipeline_hash H R pf v p :
  wf_value v = true -> ref_free v = true ->
  Forall (wf_enc default_maxlen) (flatten v) ->
  (forall x, H x <> []) ->
  any_roundtrip R pf (flatten v) = Ok (flatten v) ->
  Forall (stage_side H v) p ->
  exists out, run_pipeline H R pf p (flatten v) = Ok out /\ hash_result H out = inl (mhash H v).
Proof.
  intros Hwf Hrf Henc HHne Hany Hside. exists (flatten v).
  split; [apply pipeline_identity; assumption | apply sink_hash_is_merkle; exact Hwf].
Qed.

Corollary pipeline_identity_inj H R pf v p L :
  wf_value v = true -> ref_free v = true ->
  Forall (wf_enc default_maxlen) (flatten v) ->
  inj H -> fixed_len H L -> 0 < L ->
  any_roundtrip R pf (flatten v) = Ok (flatten v) ->
  (forall sel, In (StSubstDeref sel) p -> forall j, In j sel -> ~ In j (end_indices 0 v)) ->
  run_pipeline H R pf p (flatten v) = Ok (flatten v).
Proof.
  intros Hwf Hrf Henc Hinj HL Hpos Hany Hend.
  apply pipeline_identity; try assumption.
  - intros x E. pose proof (HL x) as Hx. rewrite E in Hx. cbn [length] in Hx. lia.
  - apply Forall_forall. intros s Hs. destruct s; try exact I.
    split; [exact (Hend _ Hs) | apply (no_collision_inj H L); assumption].
Qed.

Module Examples.
  Local Open Scope N_scope.

  Definition toy3 (bs : bytes) : bytes :=
    [N.of_nat (length bs) mod 256; fold_right N.add 0 bs mod 256; 7].

  Lemma toy3_wf x : wf_bytes (toy3 x).
  Proof.
    unfold toy3. constructor; [apply BytesP.mod256_lt|]. constructor; [apply BytesP.mod256_lt|].
    constructor; [reflexivity | constructor].
  Qed.

  Lemma toy3_ne x : toy3 x <> [].
  Proof. discriminate. Qed.

  (* HashP.ex_value; indices: 0 name, 1 array, 2 int, 3 string, 4 map, 5 map end, 6 name, 7 bool,
     8 array end *)
  Definition ex_v : value :=
    Named [1; 2]
      (Comp KArray KArrayEnd
         [Leaf (T KInt (VI WNat 5)); Leaf (T KString (VStr [104; 105]));
          Comp KMap KMapEnd []; Named [7] (Leaf (T KBool (VBool true)))]).

  Definition no_pf (_ : bytes) (_ : N) : option N := None.

  Definition ex_p : list stage :=
    [StCodec; StTree; StSubstDeref [3; 4]%nat; StIterStream; StFindRoot; StTee; StCollectValue;
     StTeeCodec; StCollect; StTreeFunc; StSubstDeref [1]%nat].

  Example ex_pipeline_computes :
    run_pipeline toy3 [] no_pf ex_p (flatten ex_v) = Ok (flatten ex_v).
  Proof. vm_compute. reflexivity. Qed.

  Example ex_enc : Forall (wf_enc default_maxlen) (flatten ex_v).
  Proof.
    repeat (constructor; [split; [reflexivity | try exact I; split; vm_compute; congruence]|]).
    constructor.
  Qed.

  (* no_collision on a concrete value: compute the two lists of no_collision_cases and run through
     the pairs; a pair is one sub-value twice, or has two different hashes *)
  Ltac collision_cases :=
    eapply no_collision_cases; [vm_compute; reflexivity | vm_compute; reflexivity |];
    repeat (constructor;
            [repeat (constructor; [intros Hm; first [reflexivity | vm_compute in Hm; discriminate Hm]|]);
             constructor|]);
    constructor.

  Example ex_no_collision : no_collision toy3 [3; 4]%nat ex_v /\ no_collision toy3 [1]%nat ex_v.
  Proof. split; collision_cases. Qed.

  Example ex_side : Forall (stage_side toy3 ex_v) ex_p.
  Proof.
    destruct ex_no_collision as [Hc1 Hc2].
    unfold ex_p.
    repeat match goal with |- Forall _ _ => constructor end; try exact I.
    - split; [|exact Hc1]. intros j Hj Hin. vm_compute in Hin. cbn [In] in Hj. lia.
    - split; [|exact Hc2]. intros j Hj Hin. vm_compute in Hin. cbn [In] in Hj. lia.
  Qed.

  Example ex_pipeline_identity R pf :
    any_roundtrip R pf (flatten ex_v) = Ok (flatten ex_v) ->
    run_pipeline toy3 R pf (StAny :: StTupleWrap :: StTee3 1 :: ex_p) (flatten ex_v) = Ok (flatten ex_v).
  Proof.
    intros Hany. apply pipeline_identity; try reflexivity; try exact Hany.
    - exact ex_enc.
    - exact toy3_ne.
    - constructor; [exact I|]. constructor; [exact I|]. constructor; [exact I|]. exact ex_side.
  Qed.

  (* a stream on which the C11 hypothesis holds by computation (no type names: with an empty
     registry the schema-less decoder drops unknown type names, so it does NOT hold for ex_v):
     a closed instance of pipeline_identity through all 16 stage kinds.
     indices: 0 array, 1 int, 2 string, 3 map, 4 map end, 5 bool, 6 array end *)
  Definition ex_w : value :=
    Comp KArray KArrayEnd
      [Leaf (T KInt (VI WNat 5)); Leaf (T KString (VStr [104; 105]));
       Comp KMap KMapEnd []; Leaf (T KBool (VBool true))].

  Definition ex_q : list stage :=
    [StAny; StCodec; StTokens; StTree; StTreeFunc; StSubstDeref [2; 3]%nat; StIterStream; StEmbedded;
     StFindRoot; StTee3 1; StTee; StTeeCodec; StCollect; StCollectValue; StSinkMarshal; StTupleWrap].

  Example ex_any : any_roundtrip [] no_pf (flatten ex_w) = Ok (flatten ex_w).
  Proof. vm_compute. reflexivity. Qed.

  Example ex_any_names_dropped : any_roundtrip [] no_pf (flatten ex_v) <> Ok (flatten ex_v).
  Proof. vm_compute. discriminate. Qed.

  Example ex_w_no_collision : no_collision toy3 [2; 3]%nat ex_w.
  Proof. collision_cases. Qed.

  Example ex_closed_instance :
    run_pipeline toy3 [] no_pf ex_q (flatten ex_w) = Ok (flatten ex_w) /\
    exists out, run_pipeline toy3 [] no_pf ex_q (flatten ex_w) = Ok out /\
                hash_result toy3 out = inl (mhash toy3 ex_w).
  Proof.
    assert (Henc : Forall (wf_enc default_maxlen) (flatten ex_w)).
    { repeat (constructor; [split; [reflexivity | try exact I; split; vm_compute; congruence]|]).
      constructor. }
    assert (Hside : Forall (stage_side toy3 ex_w) ex_q).
    { unfold ex_q. repeat match goal with |- Forall _ _ => constructor end; try exact I.
      split; [|exact ex_w_no_collision]. intros j Hj Hin. vm_compute in Hin. cbn [In] in Hj. lia. }
    split; [apply pipeline_identity | apply pipeline_hash];
      try reflexivity; try exact Henc; try exact toy3_ne; try exact ex_any; exact Hside.
  Qed.

  (* Why no_collision ranges over ALL sub-values with a selected index and not only over the
     outermost selected ones (the list [selected]): the resolver looks a hash up among all nodes
     with a selected index, in pre-order, and a selected node nested inside another selected node
     is still looked at.  Here v = [[x], y] with x <> y but toy3-hash x = toy3-hash y, and
     sel = {1: [x], 2: x, 4: y}: the outermost selected sub-values [x] and y have different
     hashes, yet Deref resolves the reference to y to the node of x. *)
  Definition cx_x : value := Leaf (T KString (VStr [97; 98])).
  Definition cx_y : value := Leaf (T KString (VStr [98; 97])).
  Definition cx_v : value := Comp KArray KArrayEnd [Comp KArray KArrayEnd [cx_x]; cx_y].
  Definition cx_sel : list nat := [1; 2; 4]%nat.

  Theorem stage_subst_deref_outermost_refuted :
    exists H sel v,
      wf_value v = true /\ ref_free v = true /\ Forall (wf_enc default_maxlen) (flatten v) /\
      (forall x, wf_bytes (H x)) /\ (forall x, H x <> []) /\
      (forall j, In j sel -> ~ In j (end_indices 0 v)) /\
      (forall j1 s1 j2 s2, In (j1, s1) (selected sel 0 v) -> In (j2, s2) (selected sel 0 v) ->
         mhash H s1 = mhash H s2 -> flatten s1 = flatten s2) /\
      run_stage H [] no_pf (StSubstDeref sel) (flatten v) <> Ok (flatten v).
  Proof.
    exists toy3, cx_sel, cx_v.
    split; [reflexivity|]. split; [reflexivity|]. split.
    { repeat (constructor; [split; [reflexivity | try exact I; split; vm_compute; congruence]|]).
      constructor. }
    split; [exact toy3_wf|]. split; [exact toy3_ne|]. split.
    { intros j Hj Hin. vm_compute in Hin. unfold cx_sel in Hj. cbn [In] in Hj. lia. }
    split.
    - intros j1 s1 j2 s2 H1 H2. vm_compute in H1, H2.
      destruct H1 as [[= <- <-]|[[= <- <-]|[]]]; destruct H2 as [[= <- <-]|[[= <- <-]|[]]]; intros Hm;
        first [reflexivity | vm_compute in Hm; discriminate Hm].
    - vm_compute. discriminate.
  Qed.
End Examples.

Print Assumptions stage_identity.
Print Assumptions pipeline_identity.
Print Assumptions pipeline_hash.
Print Assumptions pipeline_identity_inj.
Print Assumptions stage_subst_deref.
Print Assumptions Examples.ex_pipeline_computes.
Print Assumptions Examples.ex_pipeline_identity.
Print Assumptions Examples.ex_closed_instance.
Print Assumptions Examples.stage_subst_deref_outermost_refuted.
