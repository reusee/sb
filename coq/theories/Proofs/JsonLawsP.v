(* Proofs/JsonLawsP.v — laws of the reference semantics of JSON decoding (Spec/JsonDecode.v, jdec)
   that a user of JSON relies on, and their transport to the unmarshaller through
   unm_mirror_jdec (Proofs/JsonDecodeP.v):

     - null leaves a position as it is;
     - without the strict option a member naming no exported field is ignored, whatever it holds
       and wherever it stands; under the strict option (and not declared deprecated) it is rejected;
     - in an accepted object two adjacent members with different names may be swapped (which error
       a rejected object gets may depend on the order: {"A":300,"X":null} into lx_ty below, strict,
       is EParse, swapped it is EUnknownField);
     - an array document appends exactly one element per item to what the slice held.

   The member / item loops are the top-level fixpoints jmembers / jitems of JsonDecodeP.v. *)
From Coq Require Import Arith List Bool.
From SbModel Require Import Spec.JsonDecode Spec.Conform Proofs.UnmarshalP Proofs.JsonDecodeP.
Import ListNotations.
Local Open Scope N_scope.

Lemma set_nth_comm {A} (a b : A) : forall l i j, i <> j ->
  set_nth i a (set_nth j b l) = set_nth j b (set_nth i a l).
Proof.
  induction l as [|y l IH]; intros [|i] [|j] Hne; cbn [set_nth]; try reflexivity; try congruence.
  f_equal. apply IH. congruence.
Qed.

Lemma wf_ptr_strip t n b : ptr_strip t = (n, b) -> wf_ty t = true -> wf_ty b = true.
Proof.
  apply (ptr_strip_ind (fun t => wf_ty t = true)). intros t' e Hw Hut.
  apply MarshalP.wf_underlying in Hw. rewrite Hut in Hw. exact Hw.
Qed.

Lemma wf_ptr_strip_struct t n b fs :
  ptr_strip t = (n, b) -> underlying b = TStruct fs -> wf_ty t = true -> names_nodup fs = true.
Proof.
  intros Hps Hut Hw. pose proof (MarshalP.wf_underlying b (wf_ptr_strip t n b Hps Hw)) as Hwu.
  rewrite Hut, wf_ty_struct in Hwu. apply andb_true_iff in Hwu. exact (proj2 Hwu).
Qed.

Section Members.
Variable dec : ty -> gval -> json -> res gval.
Variable o : copts.
Variable fs : list (bytes * bool * ty).
Variable depr : list bytes.

Lemma jmembers_app l1 : forall l2 vals,
  jmembers dec o fs depr (l1 ++ l2) vals =
  bind (jmembers dec o fs depr l1 vals) (fun vals' => jmembers dec o fs depr l2 vals').
Proof.
  induction l1 as [|m l1 IH]; intros l2 vals; cbn [app jmembers bind]; [reflexivity|].
  destruct (find_field (fst m) fs 0) as [[i ft]|].
  - rewrite bind_assoc. destruct (dec ft (nth i vals (zero ft)) (snd m)); cbn [bind]; [apply IH|reflexivity..].
  - destruct (strict o && negb (existsb (bytes_eqb (fst m)) depr)); [reflexivity|apply IH].
Qed.

(* different names resolve to different field indices in any struct, since find_field returns
   the first exported field of the name *)
Lemma jmembers_swap m1 m2 l vals r :
  fst m1 <> fst m2 ->
  jmembers dec o fs depr (m1 :: m2 :: l) vals = Ok r ->
  jmembers dec o fs depr (m2 :: m1 :: l) vals = Ok r.
Proof.
  intros Hne. cbn [jmembers].
  destruct (find_field (fst m1) fs 0) as [[i1 ft1]|] eqn:H1;
    destruct (find_field (fst m2) fs 0) as [[i2 ft2]|] eqn:H2.
  - assert (Hi : i1 <> i2).
    { intros <-. exact (Hne (find_field_inj _ _ fs 0%nat i1 ft1 ft2 H1 H2)). }
    destruct (dec ft1 (nth i1 vals (zero ft1)) (snd m1)) as [v1|e1|] eqn:D1; cbn [bind]; [|discriminate..].
    rewrite (nth_set_nth_other v1 (zero ft2) vals i1 i2 Hi).
    destruct (dec ft2 (nth i2 vals (zero ft2)) (snd m2)) as [v2|e2|]; cbn [bind]; [|discriminate..].
    rewrite (nth_set_nth_other v2 (zero ft1) vals i2 i1) by congruence.
    rewrite D1. cbn [bind]. rewrite (set_nth_comm v1 v2 vals i1 i2 Hi). trivial.
  - destruct (strict o && negb (existsb (bytes_eqb (fst m2)) depr)); [|trivial].
    destruct (dec ft1 (nth i1 vals (zero ft1)) (snd m1)); discriminate.
  - destruct (strict o && negb (existsb (bytes_eqb (fst m1)) depr)); [discriminate|trivial].
  - destruct (strict o && negb (existsb (bytes_eqb (fst m1)) depr));
      destruct (strict o && negb (existsb (bytes_eqb (fst m2)) depr)); trivial; discriminate.
Qed.

Lemma jmembers_swap_at l1 m1 m2 l2 vals r :
  fst m1 <> fst m2 ->
  jmembers dec o fs depr (l1 ++ m1 :: m2 :: l2) vals = Ok r ->
  jmembers dec o fs depr (l1 ++ m2 :: m1 :: l2) vals = Ok r.
Proof.
  intros Hne. rewrite !jmembers_app.
  destruct (jmembers dec o fs depr l1 vals) as [vals1|e|]; cbn [bind]; [|trivial..].
  apply jmembers_swap. exact Hne.
Qed.

Lemma jitems_appends e items : forall acc r,
  jitems dec e items acc = Ok r -> exists vs, r = acc ++ vs /\ length vs = length items.
Proof.
  induction items as [|x items IH]; intros acc r; cbn [jitems].
  - intros [= <-]. exists []. split; [symmetry; apply app_nil_r|reflexivity].
  - destruct (dec e (zero e) x) as [v|er|]; cbn [bind]; [|discriminate..].
    intros H. destruct (IH _ _ H) as (vs & -> & Hl). exists (v :: vs).
    split; [rewrite <- app_assoc; reflexivity|cbn [length]; rewrite Hl; reflexivity].
Qed.

End Members.

(* the content the document meets: the position itself, or a fresh pointee *)
Definition slot (n : nat) (b : ty) (cur : gval) : gval := match n with O => cur | S _ => zero b end.

Lemma jdec_obj_cases pf o t cur ms n b :
  ptr_strip t = (n, b) ->
  jdec pf o t cur (JObj ms) =
  match underlying b with
  | TStruct fs => bind (jmembers (jdec pf o) o fs (depr_of b) ms (ConformSpec.struct_vals fs (slot n b cur)))
                       (fun vals => Ok (wrap_ptr n (GStruct vals)))
  | _ => Err (EMismatch KObject (rk_of b))
  end.
Proof.
  intros Hps. rewrite (jdec_eq pf o t cur (JObj ms) n b Hps) by discriminate.
  unfold jbase. destruct (underlying b); try reflexivity. apply bind_assoc.
Qed.

Lemma jdec_obj pf o t cur ms n b fs :
  ptr_strip t = (n, b) -> underlying b = TStruct fs ->
  jdec pf o t cur (JObj ms) =
  bind (jmembers (jdec pf o) o fs (depr_of b) ms (ConformSpec.struct_vals fs (slot n b cur)))
       (fun vals => Ok (wrap_ptr n (GStruct vals))).
Proof. intros Hps Hut. rewrite (jdec_obj_cases pf o t cur ms n b Hps), Hut. reflexivity. Qed.

Lemma jdec_obj_not_struct pf o t cur ms n b :
  ptr_strip t = (n, b) -> (forall fs, underlying b <> TStruct fs) ->
  jdec pf o t cur (JObj ms) = Err (EMismatch KObject (rk_of b)).
Proof.
  intros Hps Hut. rewrite (jdec_obj_cases pf o t cur ms n b Hps).
  destruct (underlying b) eqn:E; try reflexivity. exfalso. exact (Hut _ eq_refl).
Qed.

Lemma jdec_arr pf o t cur items n b e :
  ptr_strip t = (n, b) -> underlying b = TSlice e ->
  jdec pf o t cur (JArr items) =
  bind (jitems (jdec pf o) e items (items_of_gval (slot n b cur)))
       (fun acc => Ok (wrap_ptr n (GList (is_nil_container (slot n b cur) &&
                                          match acc with [] => true | _ => false end) acc))).
Proof.
  intros Hps Hut. rewrite (jdec_eq pf o t cur (JArr items) n b Hps) by discriminate.
  unfold jbase. rewrite Hut. apply bind_assoc.
Qed.

Theorem jdec_null_identity : forall pf o t cur, jdec pf o t cur JNull = Ok cur.
Proof. exact jdec_null. Qed.

Lemma jdec_obj_unknown pf o t cur l1 name x l2 n b fs :
  ptr_strip t = (n, b) -> underlying b = TStruct fs -> find_field name fs 0 = None ->
  jdec pf o t cur (JObj (l1 ++ (name, x) :: l2)) =
  if strict o && negb (existsb (bytes_eqb name) (depr_of b))
  then bind (jdec pf o t cur (JObj l1)) (fun _ => Err EUnknownField)
  else jdec pf o t cur (JObj (l1 ++ l2)).
Proof.
  intros Hps Hut Hff. rewrite !(jdec_obj pf o t cur _ n b fs Hps Hut), !jmembers_app.
  destruct (jmembers (jdec pf o) o fs (depr_of b) l1 (ConformSpec.struct_vals fs (slot n b cur))) as [vals1|e|];
    cbn [bind]; [cbn [jmembers fst]; rewrite Hff|..].
  all: destruct (strict o && negb (existsb (bytes_eqb name) (depr_of b))); reflexivity.
Qed.

Theorem jdec_unknown_member_ignored : forall pf o t cur l1 name x l2 n b fs,
  ptr_strip t = (n, b) -> underlying b = TStruct fs -> find_field name fs 0 = None -> strict o = false ->
  jdec pf o t cur (JObj (l1 ++ (name, x) :: l2)) = jdec pf o t cur (JObj (l1 ++ l2)).
Proof.
  intros pf o t cur l1 name x l2 n b fs Hps Hut Hff Hs.
  rewrite (jdec_obj_unknown pf o t cur l1 name x l2 n b fs Hps Hut Hff), Hs. reflexivity.
Qed.

Theorem jdec_deprecated_member_ignored : forall pf o t cur l1 name x l2 n b fs,
  ptr_strip t = (n, b) -> underlying b = TStruct fs -> find_field name fs 0 = None ->
  existsb (bytes_eqb name) (depr_of b) = true ->
  jdec pf o t cur (JObj (l1 ++ (name, x) :: l2)) = jdec pf o t cur (JObj (l1 ++ l2)).
Proof.
  intros pf o t cur l1 name x l2 n b fs Hps Hut Hff Hd.
  rewrite (jdec_obj_unknown pf o t cur l1 name x l2 n b fs Hps Hut Hff), Hd, andb_false_r. reflexivity.
Qed.

(* "the members of l1 decode successfully" is stated as: the object made of l1 alone does *)
Theorem jdec_strict_unknown_rejected : forall pf o t cur l1 name x l2 n b fs,
  ptr_strip t = (n, b) -> underlying b = TStruct fs -> find_field name fs 0 = None -> strict o = true ->
  existsb (bytes_eqb name) (depr_of b) = false ->
  (exists v, jdec pf o t cur (JObj l1) = Ok v) ->
  jdec pf o t cur (JObj (l1 ++ (name, x) :: l2)) = Err EUnknownField.
Proof.
  intros pf o t cur l1 name x l2 n b fs Hps Hut Hff Hs Hd (v & Hv).
  rewrite (jdec_obj_unknown pf o t cur l1 name x l2 n b fs Hps Hut Hff), Hs, Hd, Hv. reflexivity.
Qed.

Theorem jdec_members_commute : forall pf o t cur l1 m1 m2 l2 v,
  fst m1 <> fst m2 ->
  jdec pf o t cur (JObj (l1 ++ m1 :: m2 :: l2)) = Ok v ->
  jdec pf o t cur (JObj (l1 ++ m2 :: m1 :: l2)) = Ok v.
Proof.
  intros pf o t cur l1 m1 m2 l2 v Hne. destruct (ptr_strip t) as [n b] eqn:Hps.
  rewrite !(jdec_obj_cases pf o t cur _ n b Hps). destruct (underlying b); trivial.
  destruct (jmembers _ _ _ _ (l1 ++ m1 :: m2 :: l2) _) as [r|e|] eqn:Hm; [|discriminate..].
  rewrite (jmembers_swap_at _ _ _ _ l1 m1 m2 l2 _ r Hne Hm). trivial.
Qed.

Corollary jdec_array_appends_slot : forall pf o t cur items n b e v,
  ptr_strip t = (n, b) -> underlying b = TSlice e ->
  jdec pf o t cur (JArr items) = Ok v ->
  exists vs,
    v = wrap_ptr n (GList (is_nil_container (slot n b cur) &&
                           match items_of_gval (slot n b cur) ++ vs with [] => true | _ => false end)
                          (items_of_gval (slot n b cur) ++ vs)) /\
    length vs = length items.
Proof.
  intros pf o t cur items n b e v Hps Hut. rewrite (jdec_arr pf o t cur items n b e Hps Hut).
  destruct (jitems (jdec pf o) e items (items_of_gval (slot n b cur))) as [acc|er|] eqn:Hj; cbn [bind];
    [|discriminate..].
  intros [= <-]. destruct (jitems_appends (jdec pf o) e items _ _ Hj) as (vs & -> & Hl).
  exists vs. split; [reflexivity|exact Hl].
Qed.

(* the converse of unm_mirror_jdec_ok *)
Lemma unm_ok_jdec pf o R t cur j rest v :
  jtarget t = true ->
  (exists f0, forall f, (f0 <= f)%nat -> unm pf f o R t cur (mirror j ++ rest) = Ok (v, rest)) ->
  jdec pf o t cur j = Ok v.
Proof.
  intros Ht (f0 & H0). destruct (unm_mirror_jdec pf o R t cur j rest Ht) as (f1 & H1).
  specialize (H0 (Nat.max f0 f1) (Nat.le_max_l f0 f1)).
  specialize (H1 (Nat.max f0 f1) (Nat.le_max_r f0 f1)).
  rewrite H0 in H1. destruct (jdec pf o t cur j) as [v'|e|]; [|discriminate H1..].
  injection H1 as ->. reflexivity.
Qed.

Lemma unm_mirror_jdec_eq pf o R t cur j1 j2 rest :
  jtarget t = true -> jdec pf o t cur j1 = jdec pf o t cur j2 ->
  exists f0, forall f, (f0 <= f)%nat ->
    unm pf f o R t cur (mirror j1 ++ rest) = unm pf f o R t cur (mirror j2 ++ rest).
Proof.
  intros Ht Hj. destruct (unm_mirror_jdec pf o R t cur j1 rest Ht) as (f1 & H1).
  destruct (unm_mirror_jdec pf o R t cur j2 rest Ht) as (f2 & H2).
  exists (Nat.max f1 f2). intros f Hf.
  rewrite (H1 f (Nat.max_lub_l _ _ _ Hf)), (H2 f (Nat.max_lub_r _ _ _ Hf)), Hj. reflexivity.
Qed.

Corollary unm_json_member_order : forall pf o R t cur l1 m1 m2 l2 v rest,
  jtarget t = true -> wf_ty t = true -> fst m1 <> fst m2 ->
  (exists f0, forall f, (f0 <= f)%nat ->
     unm pf f o R t cur (mirror (JObj (l1 ++ m1 :: m2 :: l2)) ++ rest) = Ok (v, rest)) ->
  exists f0, forall f, (f0 <= f)%nat ->
     unm pf f o R t cur (mirror (JObj (l1 ++ m2 :: m1 :: l2)) ++ rest) = Ok (v, rest).
Proof.
  intros pf o R t cur l1 m1 m2 l2 v rest Ht _ Hne Hu.
  apply unm_mirror_jdec_ok; [exact Ht|].
  apply jdec_members_commute; [exact Hne|].
  exact (unm_ok_jdec pf o R t cur _ rest v Ht Hu).
Qed.

Corollary unm_json_unknown_member : forall pf o R t cur l1 name x l2 n b fs rest,
  jtarget t = true ->
  ptr_strip t = (n, b) -> underlying b = TStruct fs -> find_field name fs 0 = None -> strict o = false ->
  exists f0, forall f, (f0 <= f)%nat ->
    unm pf f o R t cur (mirror (JObj (l1 ++ (name, x) :: l2)) ++ rest) =
    unm pf f o R t cur (mirror (JObj (l1 ++ l2)) ++ rest).
Proof.
  intros pf o R t cur l1 name x l2 n b fs rest Ht Hps Hut Hff Hs.
  apply unm_mirror_jdec_eq; [exact Ht|].
  exact (jdec_unknown_member_ignored pf o t cur l1 name x l2 n b fs Hps Hut Hff Hs).
Qed.

Corollary unm_json_strict_unknown_member : forall pf o R t cur l1 name x l2 n b fs rest,
  jtarget t = true ->
  ptr_strip t = (n, b) -> underlying b = TStruct fs -> find_field name fs 0 = None -> strict o = true ->
  existsb (bytes_eqb name) (depr_of b) = false ->
  (exists v, jdec pf o t cur (JObj l1) = Ok v) ->
  exists f0, forall f, (f0 <= f)%nat ->
    unm pf f o R t cur (mirror (JObj (l1 ++ (name, x) :: l2)) ++ rest) = Err EUnknownField.
Proof.
  intros pf o R t cur l1 name x l2 n b fs rest Ht Hps Hut Hff Hs Hd Hv.
  apply unm_mirror_jdec_err; [exact Ht|].
  exact (jdec_strict_unknown_rejected pf o t cur l1 name x l2 n b fs Hps Hut Hff Hs Hd Hv).
Qed.

(* type P struct { A int8; B []*int16; C string; d bool }, declaring "Old" deprecated; target *P *)
Definition lx_struct : list (bytes * bool * ty) :=
  [([65], true, TInt W8); ([66], true, TSlice (TPtr (TInt W16))); ([67], true, TString); ([100], false, TBool)].
Definition lx_named : ty := TNamed [80] false [[79; 108; 100]] (TStruct lx_struct).
Definition lx_ty : ty := TPtr lx_named.

Example lx_target : jtarget lx_ty = true /\ wf_ty lx_ty = true /\
  ptr_strip lx_ty = (1%nat, lx_named) /\ underlying lx_named = TStruct lx_struct.
Proof. repeat split; reflexivity. Qed.

Definition lx_A : bytes * json := ([65], JNum [53]).                                  (* "A": 5 *)
Definition lx_B : bytes * json := ([66], JArr [JNum [55]; JNull; JNum [45; 51]]).     (* "B": [7, null, -3] *)
Definition lx_C : bytes * json := ([67], JStr [104; 105]).                            (* "C": "hi" *)
Definition lx_X : json := JArr [JNum [49]; JObj [([65], JStr [120])]].                (* [1, {"A": "x"}] *)

Definition lx_val : gval :=
  GPtr (Some (GStruct [GInt 5; GList false [GPtr (Some (GInt 7)); GPtr None; GPtr (Some (GInt (-3)))];
                       GStr [104; 105]; GBool false])).

(* {"A":5, "X":[1,{"A":"x"}], "B":[7,null,-3], "C":"hi"} against {"A":5, "B":..., "C":"hi"};
   "d" names an unexported field: unknown as well *)
Example lx_unknown_hyps :
  find_field [88] lx_struct 0 = None /\ find_field [100] lx_struct 0 = None /\ strict default_opts = false.
Proof. repeat split; reflexivity. Qed.

Example lx_unknown_ignored :
  jdec ex_pf default_opts lx_ty (GPtr None) (JObj ([lx_A] ++ ([88], lx_X) :: [lx_B; lx_C])) =
  jdec ex_pf default_opts lx_ty (GPtr None) (JObj ([lx_A] ++ [lx_B; lx_C])).
Proof.
  apply (jdec_unknown_member_ignored ex_pf default_opts lx_ty (GPtr None) [lx_A] [88] lx_X [lx_B; lx_C]
           1%nat lx_named lx_struct); reflexivity.
Qed.

Example lx_unknown_ignored_value :
  jdec ex_pf default_opts lx_ty (GPtr None) (JObj ([lx_A] ++ ([88], lx_X) :: [lx_B; lx_C])) = Ok lx_val /\
  jdec ex_pf default_opts lx_ty (GPtr None) (JObj ([lx_A] ++ ([100], JBool true) :: [lx_B; lx_C])) = Ok lx_val /\
  jdec ex_pf default_opts lx_ty (GPtr None) (JObj ([lx_A] ++ [lx_B; lx_C])) = Ok lx_val.
Proof. vm_compute. repeat split; reflexivity. Qed.

Example lx_unknown_unm :
  unm ex_pf 200 default_opts [] lx_ty (GPtr None)
      (mirror (JObj ([lx_A] ++ ([88], lx_X) :: [lx_B; lx_C])) ++ [T KNil VNone]) =
  unm ex_pf 200 default_opts [] lx_ty (GPtr None)
      (mirror (JObj ([lx_A] ++ [lx_B; lx_C])) ++ [T KNil VNone]).
Proof. vm_compute. reflexivity. Qed.

(* strict: "X" rejected after "A" decoded; the deprecated name "Old" passes *)
Example lx_strict_rejected :
  jdec ex_pf (Opts false true false) lx_ty (GPtr None) (JObj ([lx_A] ++ ([88], lx_X) :: [lx_B; lx_C])) =
  Err EUnknownField.
Proof.
  apply (jdec_strict_unknown_rejected ex_pf (Opts false true false) lx_ty (GPtr None) [lx_A] [88] lx_X
           [lx_B; lx_C] 1%nat lx_named lx_struct); try reflexivity.
  eexists. vm_compute. reflexivity.
Qed.

Example lx_strict_deprecated :
  jdec ex_pf (Opts false true false) lx_ty (GPtr None)
       (JObj ([lx_A] ++ ([79; 108; 100], lx_X) :: [lx_B; lx_C])) = Ok lx_val.
Proof. vm_compute. reflexivity. Qed.

(* {"A":5, "B":[...], "C":"hi"} and {"A":5, "C":"hi", "B":[...]} *)
Example lx_commute_value :
  jdec ex_pf default_opts lx_ty (GPtr None) (JObj ([lx_A] ++ lx_B :: lx_C :: [])) = Ok lx_val.
Proof. vm_compute. reflexivity. Qed.

Example lx_commute :
  jdec ex_pf default_opts lx_ty (GPtr None) (JObj ([lx_A] ++ lx_C :: lx_B :: [])) = Ok lx_val.
Proof.
  apply jdec_members_commute; [discriminate|exact lx_commute_value].
Qed.

Example lx_commute_direct :
  jdec ex_pf default_opts lx_ty (GPtr None) (JObj ([lx_A] ++ lx_C :: lx_B :: [])) = Ok lx_val.
Proof. vm_compute. reflexivity. Qed.

(* the premise on the names is needed: with a repeated name the later member wins *)
Example lx_same_name_order_matters :
  jdec ex_pf default_opts lx_ty (GPtr None) (JObj [([65], JNum [53]); ([65], JNum [54])]) <>
  jdec ex_pf default_opts lx_ty (GPtr None) (JObj [([65], JNum [54]); ([65], JNum [53])]).
Proof. vm_compute. discriminate. Qed.

(* [7, null, -3] into a []*int16 holding one element already; and into a nil slice behind a pointer *)
Definition lx_slice : ty := TSlice (TPtr (TInt W16)).

Example lx_array_appends :
  jdec ex_pf default_opts lx_slice (GList false [GPtr (Some (GInt 1))]) (snd lx_B) =
  Ok (GList false ([GPtr (Some (GInt 1))] ++ [GPtr (Some (GInt 7)); GPtr None; GPtr (Some (GInt (-3)))])).
Proof. vm_compute. reflexivity. Qed.

Example lx_array_appends_thm : exists vs,
  GList false [GPtr (Some (GInt 1)); GPtr (Some (GInt 7)); GPtr None; GPtr (Some (GInt (-3)))] =
  GList false ([GPtr (Some (GInt 1))] ++ vs) /\ length vs = 3%nat.
Proof.
  destruct (jdec_array_appends_slot ex_pf default_opts lx_slice (GList false [GPtr (Some (GInt 1))])
              [JNum [55]; JNull; JNum [45; 51]] 0%nat lx_slice (TPtr (TInt W16))
              (GList false [GPtr (Some (GInt 1)); GPtr (Some (GInt 7)); GPtr None; GPtr (Some (GInt (-3)))])
              eq_refl eq_refl) as (vs & Hv & Hl).
  - vm_compute. reflexivity.
  - exists vs. split; [exact Hv|exact Hl].
Qed.

Example lx_array_ptr_nil_stays_nil :
  jdec ex_pf default_opts (TPtr lx_slice) (GPtr None) (JArr []) = Ok (GPtr (Some (GList true []))) /\
  jdec ex_pf default_opts (TPtr lx_slice) (GPtr None) (JArr [JNull]) = Ok (GPtr (Some (GList false [GPtr None]))).
Proof. vm_compute. split; reflexivity. Qed.

Print Assumptions jdec_null_identity.
Print Assumptions jdec_unknown_member_ignored.
Print Assumptions jdec_deprecated_member_ignored.
Print Assumptions jdec_strict_unknown_rejected.
Print Assumptions jdec_members_commute.
Print Assumptions unm_json_member_order.
Print Assumptions unm_json_unknown_member.
Print Assumptions unm_json_strict_unknown_member.
