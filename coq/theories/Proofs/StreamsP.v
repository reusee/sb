(* Proofs/StreamsP.v — C13: the stream combinators are transparent (running a stream term
   yields its denotation); C15: faults are propagated, never turned into a clean end, and
   what was delivered before a fault is a prefix of the fault-free stream.
   The fuel of pstep/next is dealt with once: [stable], [nxt] and [behaves] say what a term does
   with any sufficient fuel, each combinator is shown to behave as its denotation from the
   behaviour of its source, and only behaves_run goes back to [run].  In the order of the file:
   one call of each closure (the pstep_ equations); stable, nxt (nxt_fuel), behaves; seq_den; the combinators one by
     one (beh_tokens, beh_iter, beh_filter, beh_concat, beh_deref, beh_tee, beh_decode); beh_den, behaves_run;
   C13: run_den_refuted, run_den_partial; transparency as equations between denotations (tee_transparent,
     iter_stream_transparent, concat_is_concat, filter_is_filter, ...) and run_tee_transparent;
   C15: heal_hp (den_fault_prefix, den_clean_means_no_fault); every combinator context propagates a
     source error (the den_fail_ theorems), run_fail_propagates. *)
From Coq Require Import List NArith ZArith Bool Arith Permutation.
From SbModel Require Import Base.Bytes Base.Tokens Base.Values Model.Codec Model.Sinks Model.Tree
  Model.Procs Spec.StreamSpec.
From SbModel Require Import Proofs.CodecP Proofs.SinksP.
Import ListNotations.

(* Proc.Next as a loop over an arbitrary step function *)
Definition nextG (st : proc -> pres) : nat -> proc -> list delivery -> pres :=
  fix next (g : nat) (q : proc) (lg : list delivery) {struct g} : pres :=
    match g with
    | O => PErr EDiverge lg
    | S g' =>
      match q with
      | PNil => POk None PNil lg
      | _ => match st q with
             | PErr e lg' => PErr e (lg ++ lg')
             | POk (Some t) q' lg' => POk (Some t) q' (lg ++ lg')
             | POk None q' lg' => next g' q' (lg ++ lg')
             end
      end
    end.

Definition padd (lg : list delivery) (r : pres) : pres :=
  match r with
  | POk t p l => POk t p (lg ++ l)
  | PErr e l => PErr e (lg ++ l)
  end.

Lemma padd_nil r : padd [] r = r.
Proof. destruct r; reflexivity. Qed.

Lemma padd_padd a b r : padd a (padd b r) = padd (a ++ b) r.
Proof. destruct r; cbn [padd]; now rewrite app_assoc. Qed.

Lemma nextG_S st g p lg : p <> PNil ->
  nextG st (S g) p lg =
  match st p with
  | PErr e lg' => PErr e (lg ++ lg')
  | POk (Some t) q' lg' => POk (Some t) q' (lg ++ lg')
  | POk None q' lg' => nextG st g q' (lg ++ lg')
  end.
Proof. intros H. destruct p; try congruence; reflexivity. Qed.

Lemma next_S g p lg : p <> PNil ->
  next (S g) p lg =
  match pstep (S g) p with
  | PErr e lg' => PErr e (lg ++ lg')
  | POk (Some t) q' lg' => POk (Some t) q' (lg ++ lg')
  | POk None q' lg' => next g q' (lg ++ lg')
  end.
Proof. intros H. destruct p; try congruence; reflexivity. Qed.

Lemma pstep_nil f : pstep (S f) PNil = POk None PNil [].
Proof. reflexivity. Qed.
Lemma pstep_tokens_nil f c : pstep (S f) (PTokens [] c) = POk None c [].
Proof. reflexivity. Qed.
Lemma pstep_tokens_cons f t r c : pstep (S f) (PTokens (t :: r) c) = POk (Some t) (PTokens r c) [].
Proof. reflexivity. Qed.
Lemma pstep_fail f e : pstep (S f) (PFail e) = PErr e [].
Proof. reflexivity. Qed.
Lemma pstep_iter f s c :
  pstep (S f) (PIterStream s c) =
  match nextG (pstep f) f s [] with
  | PErr e lg => PErr e lg
  | POk None _ lg => POk None c lg
  | POk (Some t) s' lg => POk (Some t) (PIterStream s' c) lg
  end.
Proof. reflexivity. Qed.
Lemma pstep_tee f s sinks c :
  pstep (S f) (PTee s sinks c) =
  match nextG (pstep f) f s [] with
  | PErr e lg => PErr e lg
  | POk t s' lg =>
      match tee_pass (S (length sinks)) t [] sinks lg with
      | inr (e, lg') => PErr e lg'
      | inl (sinks', lg') =>
          match t, sinks' with
          | None, [] => POk None c lg'
          | _, _ => POk t (PTee s' sinks' c) lg'
          end
      end
  end.
Proof. reflexivity. Qed.
Definition pc (rest : list proc) : proc := match rest with [] => PNil | _ => PConcat rest end.
Lemma pstep_concat_nil f : pstep (S f) (PConcat []) = POk None PNil [].
Proof. reflexivity. Qed.
Lemma pstep_concat f s rest :
  pstep (S f) (PConcat (s :: rest)) =
  match nextG (pstep f) f s [] with
  | PErr e lg => PErr e lg
  | POk (Some t) s' lg => POk (Some t) (PConcat (s' :: rest)) lg
  | POk None _ lg => POk None (pc rest) lg
  end.
Proof.
  cbn [pstep]. change (fix next (g : nat) (q : proc) (lg : list delivery) {struct g} : pres := _)
    with (nextG (pstep f)).
  destruct (nextG (pstep f) f s []) as [[t|] s' lg|e lg]; try reflexivity. destruct rest; reflexivity.
Qed.
Lemma pstep_filter f s pr c :
  pstep (S f) (PFilter s pr c) =
  match nextG (pstep f) f s [] with
  | PErr e lg => PErr e lg
  | POk None _ lg => POk None c lg
  | POk (Some t) s' lg =>
      if holds pr t then POk (Some t) (PFilter s' pr c) lg else POk None (PFilter s' pr c) lg
  end.
Proof. reflexivity. Qed.
(* what deref does with one token of its source: pass it on, splice in the stream the
   reference resolves to, or fail *)
Inductive dact := DPass | DSub (sub : list token) | DErr (e : eclass).
Definition deref_act (res : list (bytes * resolution)) (t : token) : dact :=
  if (kind t =? KRef)%N then
    match val t with
    | VBytes h => match lookup_res res h with
                  | RFail => DErr EFault
                  | RDecline => DPass
                  | RStream sub => DSub sub
                  end
    | _ => DErr EPanic
    end
  else DPass.

Lemma deref_act_err res t e : deref_act res t = DErr e -> e <> ENone.
Proof.
  unfold deref_act. destruct (kind t =? KRef)%N; [|discriminate].
  destruct (val t); try (intros [= <-]; discriminate).
  destruct (lookup_res res _); intros [= <-]; discriminate.
Qed.

Lemma pstep_deref f s res c :
  pstep (S f) (PDeref s res c) =
  match nextG (pstep f) f s [] with
  | PErr e lg => PErr e lg
  | POk None _ lg => POk None c lg
  | POk (Some t) s' lg =>
      match deref_act res t with
      | DPass => POk (Some t) (PDeref s' res c) lg
      | DSub sub => POk None (PIterStream (PTokens sub PNil) (PDeref s' res c)) lg
      | DErr e => PErr e lg
      end
  end.
Proof.
  cbn [pstep]. change (fix next (g : nat) (q : proc) (lg : list delivery) {struct g} : pres := _)
    with (nextG (pstep f)).
  destruct (nextG (pstep f) f s []) as [[t|] s' lg|e lg]; try reflexivity.
  unfold deref_act. destruct (kind t =? KRef)%N; [|reflexivity].
  destruct (val t); try reflexivity. now destruct (lookup_res res _).
Qed.

Lemma deref_list_cons res t r :
  deref_list res (t :: r) =
  match deref_act res t with
  | DPass => seq_den ([t], ENone) (deref_list res r)
  | DSub sub => seq_den (sub, ENone) (deref_list res r)
  | DErr e => ([], e)
  end.
Proof.
  cbn [deref_list]. unfold deref_act. destruct (kind t =? KRef)%N; [|reflexivity].
  destruct (val t); try reflexivity. now destruct (lookup_res res _).
Qed.

Lemma pstep_decode f maxlen fault bs off c :
  pstep (S f) (PDecode maxlen fault bs off c) =
  match decode_step maxlen fault bs off with
  | SEnd => POk None c []
  | SErr e o => PErr e []
  | STok t r o => POk (Some t) (PDecode maxlen fault r o c) []
  end.
Proof. reflexivity. Qed.

Definition stable (p : proc) (r : pres) : Prop :=
  exists k, forall fuel, k <= fuel -> pstep fuel p = r.

(* Proc.Next, given enough fuel (log relative to the call) *)
Inductive nxt : proc -> pres -> Prop :=
| NX_nil : nxt PNil (POk None PNil [])
| NX_err p e l : p <> PNil -> stable p (PErr e l) -> nxt p (PErr e l)
| NX_tok p t p' l : p <> PNil -> stable p (POk (Some t) p' l) -> nxt p (POk (Some t) p' l)
| NX_skip p p' l r : p <> PNil -> stable p (POk None p' l) -> nxt p' r -> nxt p (padd l r).

(* both loops, the one inside a combinator (its closure calls Next on the source with the
   closure's own fuel) and Proc.Next itself, reach r once they have enough fuel *)
Lemma nxt_fuel p r : nxt p r ->
  exists n, (forall f g lg, n <= f -> n <= g -> nextG (pstep f) g p lg = padd lg r) /\
            (forall g lg, n <= g -> next g p lg = padd lg r).
Proof.
  induction 1 as [|p e l Hne [k Hk]|p t p' l Hne [k Hk]|p p' l r Hne [k Hk] Hn (n & IH1 & IH2)].
  - exists 1. split; [intros f g lg _ Hg|intros g lg Hg]; destruct (fuel_S _ _ Hg) as (g' & -> & _);
      cbn [nextG next padd]; now rewrite app_nil_r.
  - exists (S k). split; [intros f g lg Hf Hg|intros g lg Hg]; destruct (fuel_S _ _ Hg) as (g' & -> & _);
      rewrite ?nextG_S, ?next_S by assumption; now rewrite Hk by (apply Nat.lt_le_incl; assumption).
  - exists (S k). split; [intros f g lg Hf Hg|intros g lg Hg]; destruct (fuel_S _ _ Hg) as (g' & -> & _);
      rewrite ?nextG_S, ?next_S by assumption; now rewrite Hk by (apply Nat.lt_le_incl; assumption).
  - exists (S (Nat.max k n)). split.
    + intros f g lg [Hkf Hnf]%Nat.lt_le_incl%Nat.max_lub_iff Hg.
      destruct (fuel_S _ _ Hg) as (g' & -> & [_ Hng]%Nat.max_lub_iff).
      rewrite nextG_S, Hk, IH1 by assumption. symmetry. apply padd_padd.
    + intros g lg Hg. destruct (fuel_S _ _ Hg) as (g' & -> & [Hkg Hng]%Nat.max_lub_iff).
      rewrite next_S, (Hk _ (le_S _ _ Hkg)), IH2 by assumption. symmetry. apply padd_padd.
Qed.

Definition ends (e : eclass) (p : proc) : Prop :=
  (e = ENone /\ exists l, nxt p (POk None PNil l)) \/ (e <> ENone /\ exists l, nxt p (PErr e l)).

Fixpoint behaves (ts : list token) (e : eclass) (p : proc) : Prop :=
  match ts with
  | [] => ends e p
  | t :: r => exists p' l, nxt p (POk (Some t) p' l) /\ behaves r e p'
  end.
Definition beh (d : list token * eclass) (p : proc) : Prop := behaves (fst d) (snd d) p.

Lemma beh_nil : behaves [] ENone PNil.
Proof. left. split; [reflexivity|]. exists []. constructor. Qed.

Lemma beh_skip p p' l ts e :
  p <> PNil -> stable p (POk None p' l) -> behaves ts e p' -> behaves ts e p.
Proof.
  intros Hne Hst H. destruct ts as [|t r]; cbn [behaves] in *.
  - destruct H as [[He [l0 H]]|[He [l0 H]]].
    + left. split; [assumption|]. exists (l ++ l0). exact (NX_skip _ _ _ _ Hne Hst H).
    + right. split; [assumption|]. exists (l ++ l0). exact (NX_skip _ _ _ _ Hne Hst H).
  - destruct H as (p'' & l0 & H & Hb). exists p'', (l ++ l0). split; [|exact Hb].
    exact (NX_skip _ _ _ _ Hne Hst H).
Qed.

Lemma beh_tok p p' l t ts e :
  p <> PNil -> stable p (POk (Some t) p' l) -> behaves ts e p' -> behaves (t :: ts) e p.
Proof. intros Hne Hst H. exists p', l. split; [now constructor|exact H]. Qed.

Lemma beh_err p e l : p <> PNil -> stable p (PErr e l) -> e <> ENone -> behaves [] e p.
Proof. intros Hne Hst He. right. split; [assumption|]. exists l. now constructor. Qed.

Lemma enone_dec e : {e = ENone} + {e <> ENone}.
Proof. destruct e; (left; reflexivity) || (right; discriminate). Qed.

Lemma keep_err (e e' : eclass) : e' <> ENone -> match e' with ENone => e | _ => e' end = e'.
Proof. intros H. destruct e'; [destruct H|..]; reflexivity. Qed.

Lemma seq_den_clean ts d : seq_den (ts, ENone) d = (ts ++ fst d, snd d).
Proof. reflexivity. Qed.

Lemma seq_den_err ts e d : e <> ENone -> seq_den (ts, e) d = (ts, e).
Proof. intros H. unfold seq_den. cbn [fst snd]. destruct e; [destruct H|..]; reflexivity. Qed.

Lemma seq_den_nil d : seq_den ([], ENone) d = d.
Proof. destruct d; reflexivity. Qed.

Lemma seq_den_nil_r a : seq_den a ([], ENone) = a.
Proof.
  destruct a as [ts e]. destruct (enone_dec e) as [->|He]; [|now apply seq_den_err].
  rewrite seq_den_clean. cbn [fst snd]. now rewrite app_nil_r.
Qed.

Lemma seq_den_cons t ts e d :
  seq_den (t :: ts, e) d = (t :: fst (seq_den (ts, e) d), snd (seq_den (ts, e) d)).
Proof. destruct (enone_dec e) as [->|He]; [reflexivity|now rewrite !seq_den_err by assumption]. Qed.

Lemma seq_den_app a b e d : seq_den (a, ENone) (seq_den (b, e) d) = seq_den (a ++ b, e) d.
Proof.
  destruct (enone_dec e) as [->|He]; [|now rewrite !(seq_den_err _ e) by assumption].
  rewrite !seq_den_clean. cbn [fst snd]. now rewrite app_assoc.
Qed.

Lemma beh_cons p p' l t ts e d :
  p <> PNil -> stable p (POk (Some t) p' l) -> beh (seq_den (ts, e) d) p' -> beh (seq_den (t :: ts, e) d) p.
Proof. rewrite seq_den_cons. apply beh_tok. Qed.

(* a closure that does not call Next on a source needs one unit of fuel *)
Lemma stable_S p r : (forall f, pstep (S f) p = r) -> stable p r.
Proof. intros E. exists 1. intros fuel Hf. destruct (fuel_S _ _ Hf) as (f & -> & _). apply E. Qed.

(* a combinator's closure calls Next on its source s with the closure's own fuel: if that
   Next yields r, the closure's reaction to r is what the call returns *)
Lemma stable_next p s r r' :
  nxt s r -> (forall f, nextG (pstep f) f s [] = r -> pstep (S f) p = r') -> stable p r'.
Proof.
  intros H E. destruct (nxt_fuel _ _ H) as (n & Hn & _). exists (S n). intros fuel Hf.
  destruct (fuel_S _ _ Hf) as (f & -> & Hf'). apply E. rewrite Hn by assumption. apply padd_nil.
Qed.

(* [stab H eqn], for H : nxt s r and eqn the equation of the closure call *)
Ltac stab H eqn :=
  let f := fresh "f" in let E := fresh "E" in
  apply (stable_next _ _ _ _ H); intros f E; rewrite eqn, E; try reflexivity.

(* a combinator p over a source s that has ended: an error is passed on, after a clean end
   the combinator gives way to its continuation c *)
Lemma beh_ends p s c e d :
  p <> PNil -> ends e s -> beh d c ->
  (forall l, nxt s (POk None PNil l) -> exists l', stable p (POk None c l')) ->
  (forall e' l, nxt s (PErr e' l) -> stable p (PErr e' l)) ->
  beh (seq_den ([], e) d) p.
Proof.
  intros Hne [[-> [l H]]|[He [l H]]] Hc Hok Herr.
  - rewrite seq_den_nil. destruct (Hok l H) as [l' Hst]. exact (beh_skip _ c l' _ _ Hne Hst Hc).
  - rewrite seq_den_err by assumption. exact (beh_err _ e l Hne (Herr e l H) He).
Qed.

Lemma beh_tokens ts c d : beh d c -> beh (seq_den (ts, ENone) d) (PTokens ts c).
Proof.
  intros Hc. induction ts as [|t ts IH].
  - rewrite seq_den_nil. eapply (beh_skip _ c []); [discriminate| |exact Hc].
    now apply stable_S.
  - apply (beh_cons _ (PTokens ts c) []); [discriminate| |exact IH]. now apply stable_S.
Qed.

Lemma behaves_tokens ts : behaves ts ENone (PTokens ts PNil).
Proof.
  pose proof (beh_tokens ts PNil ([], ENone) beh_nil) as H. now rewrite seq_den_nil_r in H.
Qed.

Lemma beh_fail e : e <> ENone -> behaves [] e (PFail e).
Proof.
  intros He. apply (beh_err _ e []); [discriminate| |exact He].
  now apply stable_S.
Qed.

Lemma beh_iter : forall ts e s c d, behaves ts e s -> beh d c -> beh (seq_den (ts, e) d) (PIterStream s c).
Proof.
  induction ts as [|t ts IH]; intros e s c d Hs Hc.
  - apply (beh_ends _ s c); [discriminate|exact Hs|exact Hc|intros l H; exists l|intros e' l H];
      stab H pstep_iter.
  - destruct Hs as (s' & l & H & Hs'). apply (beh_cons _ (PIterStream s' c) l); [discriminate| |now apply IH].
    stab H pstep_iter.
Qed.

Lemma beh_filter pr : forall ts e s c d,
  behaves ts e s -> beh d c -> beh (seq_den (filter (holds pr) ts, e) d) (PFilter s pr c).
Proof.
  induction ts as [|t ts IH]; intros e s c d Hs Hc.
  - apply (beh_ends _ s c); [discriminate|exact Hs|exact Hc|intros l H; exists l|intros e' l H];
      stab H pstep_filter.
  - destruct Hs as (s' & l & H & Hs'). cbn [filter]. destruct (holds pr t) eqn:Eh.
    + apply (beh_cons _ (PFilter s' pr c) l); [discriminate| |now apply IH].
      stab H pstep_filter. now rewrite Eh.
    + eapply (beh_skip _ (PFilter s' pr c) l); [discriminate| |now apply IH].
      stab H pstep_filter. now rewrite Eh.
Qed.

Lemma beh_concat_cons : forall ts e s rest d,
  behaves ts e s -> beh d (pc rest) -> beh (seq_den (ts, e) d) (PConcat (s :: rest)).
Proof.
  induction ts as [|t ts IH]; intros e s rest d Hs Hc.
  - apply (beh_ends _ s (pc rest)); [discriminate|exact Hs|exact Hc|intros l H; exists l|intros e' l H];
      stab H pstep_concat.
  - destruct Hs as (s' & l & H & Hs'). apply (beh_cons _ (PConcat (s' :: rest)) l); [discriminate| |now apply IH].
    stab H pstep_concat.
Qed.

Lemma beh_concat ss : Forall (fun s => beh (den s) s) ss -> beh (den (PConcat ss)) (PConcat ss).
Proof.
  induction 1 as [|s rest Hs Hrest IH].
  - cbn [den fold_right]. eapply (beh_skip _ PNil []); [discriminate| |exact beh_nil].
    now apply stable_S.
  - cbn [den fold_right]. change (fold_right (fun s0 acc => seq_den (den s0) acc) ([], ENone) rest)
      with (den (PConcat rest)).
    destruct (den s) as [ts e] eqn:Ed. apply beh_concat_cons; [exact Hs|].
    destruct rest as [|s2 rest2]; [exact beh_nil|exact IH].
Qed.

Definition deref_den (res : list (bytes * resolution)) (ts : list token) (e : eclass) : list token * eclass :=
  let '(out, e') := deref_list res ts in (out, match e' with ENone => e | _ => e' end).

Lemma deref_den_cons res t ts e :
  deref_den res (t :: ts) e =
  match deref_act res t with
  | DPass => seq_den ([t], ENone) (deref_den res ts e)
  | DSub sub => seq_den (sub, ENone) (deref_den res ts e)
  | DErr e0 => ([], e0)
  end.
Proof.
  unfold deref_den. rewrite deref_list_cons. pose proof (deref_act_err res t) as Herr.
  destruct (deref_act res t) as [|sub|e0]; [now destruct (deref_list res ts)..|].
  now rewrite (keep_err e e0 (Herr e0 eq_refl)).
Qed.

Lemma beh_deref res : forall ts e s c d,
  behaves ts e s -> beh d c -> beh (seq_den (deref_den res ts e) d) (PDeref s res c).
Proof.
  induction ts as [|t ts IH]; intros e s c d Hs Hc.
  - apply (beh_ends _ s c); [discriminate|exact Hs|exact Hc|intros l H; exists l|intros e' l H];
      stab H pstep_deref.
  - destruct Hs as (s' & l & H & Hs'). specialize (IH e s' c d Hs' Hc).
    rewrite deref_den_cons. destruct (deref_act res t) as [|sub|e0] eqn:Ea.
    + destruct (deref_den res ts e) as [out e2]. apply (beh_cons _ (PDeref s' res c) l); [discriminate| |exact IH].
      stab H pstep_deref. now rewrite Ea.
    + (* the reference is replaced by the resolved stream *)
      eapply (beh_skip _ (PIterStream (PTokens sub PNil) (PDeref s' res c)) l); [discriminate| |].
      { stab H pstep_deref. now rewrite Ea. }
      destruct (deref_den res ts e) as [out e2]. rewrite seq_den_clean, <- seq_den_app.
      exact (beh_iter sub ENone _ _ _ (behaves_tokens sub) IH).
    + pose proof (deref_act_err _ _ _ Ea) as He0. rewrite seq_den_err by assumption.
      apply (beh_err _ e0 l); [discriminate| |exact He0]. stab H pstep_deref. now rewrite Ea.
Qed.

Definition tsk (k : sink) : Prop := match k with SRec _ _ | SDiscard => True | _ => False end.

Lemma feed_tsk s t : tsk s ->
  is_nil s = false /\ exists s' lg, feed s t = FOk s' lg /\ (is_nil s' = false -> tsk s') /\
                                   (t = None -> is_nil s' = true).
Proof.
  destruct s as [|id l| | | | | |]; cbn [tsk]; try (intros []; fail); intros _; (split; [reflexivity|]).
  - destruct t as [t|].
    + rewrite feed_rec. eexists; eexists. split; [reflexivity|]. split; [|discriminate].
      destruct (life_after l); [intros _; exact I|discriminate].
    + eexists; eexists. split; [reflexivity|]. split; [discriminate|reflexivity].
  - destruct t as [t|]; eexists; eexists; (split; [reflexivity|]).
    + split; [intros _; exact I|discriminate].
    + split; [discriminate|reflexivity].
Qed.

Lemma tee_pass_S f t done s rest lg :
  tee_pass (S f) t done (s :: rest) lg =
  if is_nil s then inr (EPanic, lg)
  else match feed s t with
       | FErr e lg' => inr (e, lg ++ lg')
       | FOk s' lg' =>
           if is_nil s' then tee_pass f t done (swapl rest) (lg ++ lg')
           else tee_pass f t (done ++ [s']) rest (lg ++ lg')
       end.
Proof. reflexivity. Qed.

Lemma tee_pass_tsk t : forall fuel done todo lg,
  length todo < fuel -> Forall tsk todo ->
  exists out lg', tee_pass fuel t done todo lg = inl (out, lg') /\
    (Forall tsk done -> Forall tsk out) /\ (t = None -> out = done).
Proof.
  induction fuel as [|f IH]; intros done todo lg Hf Hs; [destruct (Nat.nlt_0_r _ Hf)|].
  destruct todo as [|s rest]; [|apply Nat.succ_lt_mono in Hf].
  - exists done, lg. cbn [tee_pass]. auto.
  - rewrite tee_pass_S. inversion Hs as [|? ? Hs1 Hs2]; subst.
    destruct (feed_tsk s t Hs1) as (En & s' & lg0 & Ef & Ht & Hn). rewrite En, Ef.
    destruct (is_nil s') eqn:En'.
    + destruct (IH done (swapl rest) (lg ++ lg0)) as (out & lg' & E & H1 & H2).
      * rewrite swapl_length. exact Hf.
      * eapply Permutation_Forall; [symmetry; apply swapl_perm|assumption].
      * exists out, lg'. auto.
    + destruct (IH (done ++ [s']) rest (lg ++ lg0)) as (out & lg' & E & H1 & H2);
        [exact Hf|assumption|].
      exists out, lg'. split; [exact E|]. split.
      * intros Hd. apply H1. apply Forall_app. split; [assumption|]. constructor; [now apply Ht|constructor].
      * intros ->. discriminate (Hn eq_refl).
Qed.

Lemma beh_tee : forall ts e s sinks c d,
  behaves ts e s -> Forall tsk sinks -> beh d c -> beh (seq_den (ts, e) d) (PTee s sinks c).
Proof.
  induction ts as [|t ts IH]; intros e s sinks c d Hs Hk Hc.
  - apply (beh_ends _ s c); [discriminate|exact Hs|exact Hc|intros l H|intros e' l H; stab H pstep_tee].
    destruct (tee_pass_tsk None (S (length sinks)) [] sinks l (Nat.lt_succ_diag_r _) Hk)
      as (out & lg' & E & _ & Hout). rewrite (Hout eq_refl) in E.
    exists lg'. stab H pstep_tee. now rewrite E.
  - destruct Hs as (s' & l & H & Hs').
    destruct (tee_pass_tsk (Some t) (S (length sinks)) [] sinks l (Nat.lt_succ_diag_r _) Hk)
      as (out & lg' & E & Hout & _).
    apply (beh_cons _ (PTee s' out c) lg'); [discriminate| |].
    + stab H pstep_tee. now rewrite E.
    + apply IH; [assumption|apply Hout; constructor|assumption].
Qed.

Lemma end_err_not_none fault : end_err fault <> ENone.
Proof. destruct fault; discriminate. Qed.

Lemma toolong_not_none strk : toolong strk <> ENone.
Proof. destruct strk; discriminate. Qed.

Lemma read_len_err_not_none maxlen fault strk bs off e o :
  read_len maxlen fault strk bs off = LenErr e o -> e <> ENone.
Proof.
  destruct bs as [|b r]; [rewrite read_len_nil; intros [= <- _]; apply end_err_not_none|].
  destruct (N.ltb_spec b 128) as [Hb|Hb].
  - rewrite read_len_short by exact Hb. destruct (maxlen <? b)%N; [|discriminate].
    intros [= <- _]. apply toolong_not_none.
  - rewrite read_len_long by exact Hb.
    destruct (8 <? compl8 b)%N; [intros [= <- _]; apply toolong_not_none|].
    destruct (takeN (compl8 b) r) as [[u r']|]; [|intros [= <- _]; apply end_err_not_none].
    destruct (read_uvarint u) as [len| | |]; try (intros [= <- _]; discriminate).
    destruct (maxlen <? len)%N; [|discriminate]. intros [= <- _]. apply toolong_not_none.
Qed.

Lemma step_err_not_none maxlen fault bs off e o :
  decode_step maxlen fault bs off = SErr e o -> e <> ENone.
Proof.
  destruct bs as [|k r].
  - rewrite step_nil. destruct fault; [|discriminate]. intros [= <- _]. discriminate.
  - destruct (kind_classify k) as [n mk Hf|strk Hk|Hk|Hf Hsb Hv].
    + rewrite (step_fixed _ _ _ _ _ _ _ Hf). destruct (takeN n r) as [[img r']|]; [discriminate|].
      intros [= <- _]. apply end_err_not_none.
    + rewrite (step_var strk) by exact Hk.
      destruct (read_len maxlen fault strk r (off + 1)) as [len r' o1|e1 o1] eqn:El.
      * destruct (takeN len r') as [[pl r'']|]; [discriminate|]. intros [= <- _]. apply end_err_not_none.
      * intros [= <- _]. exact (read_len_err_not_none _ _ _ _ _ _ _ El).
    + rewrite step_valueless by exact Hk. discriminate.
    + rewrite step_bad by assumption. intros [= <- _]. discriminate.
Qed.

Lemma beh_decode maxlen fault c d : beh d c -> forall n bs off, length bs < n ->
  beh (let '(ts, dd) := decode_all n maxlen fault bs off in seq_den (ts, dend_class dd) d)
      (PDecode maxlen fault bs off c).
Proof.
  intros Hc. induction n as [|n IH]; intros bs off Hn; [destruct (Nat.nlt_0_r _ Hn)|].
  rewrite decode_all_S. destruct (decode_step maxlen fault bs off) as [|t r o|e o] eqn:Es.
  - cbn [dend_class]. rewrite seq_den_nil. eapply (beh_skip _ c []); [discriminate| |exact Hc].
    apply stable_S. intros f. now rewrite pstep_decode, Es.
  - pose proof (step_shrinks _ _ _ _ _ _ _ Es) as Hlen.
    specialize (IH r o (Nat.lt_le_trans _ _ _ Hlen (le_S_n _ _ Hn))). destruct (decode_all n maxlen fault r o) as [ts dd].
    apply (beh_cons _ (PDecode maxlen fault r o c) []); [discriminate| |exact IH]. apply stable_S. intros f. now rewrite pstep_decode, Es.
  - pose proof (step_err_not_none _ _ _ _ _ _ Es) as He. cbn [dend_class].
    rewrite seq_den_err by assumption. apply (beh_err _ e []); [discriminate| |exact He].
    apply stable_S. intros f. now rewrite pstep_decode, Es.
Qed.

Section proc_ind2.
  Variable P : proc -> Prop.
  Hypothesis HNil : P PNil.
  Hypothesis HTok : forall ts c, P c -> P (PTokens ts c).
  Hypothesis HFail : forall e, P (PFail e).
  Hypothesis HIter : forall s c, P s -> P c -> P (PIterStream s c).
  Hypothesis HTee : forall s k c, P s -> P c -> P (PTee s k c).
  Hypothesis HConcat : forall ss, Forall P ss -> P (PConcat ss).
  Hypothesis HFilter : forall s pr c, P s -> P c -> P (PFilter s pr c).
  Hypothesis HDeref : forall s r c, P s -> P c -> P (PDeref s r c).
  Hypothesis HDecode : forall m f bs off c, P c -> P (PDecode m f bs off c).
  Fixpoint proc_ind2 (p : proc) : P p :=
    match p with
    | PNil => HNil
    | PTokens ts c => HTok ts c (proc_ind2 c)
    | PFail e => HFail e
    | PIterStream s c => HIter s c (proc_ind2 s) (proc_ind2 c)
    | PTee s k c => HTee s k c (proc_ind2 s) (proc_ind2 c)
    | PConcat ss =>
        HConcat ss ((fix go (l : list proc) : Forall P l :=
                       match l with [] => Forall_nil _ | x :: r => Forall_cons _ (proc_ind2 x) (go r) end) ss)
    | PFilter s pr c => HFilter s pr c (proc_ind2 s) (proc_ind2 c)
    | PDeref s r c => HDeref s r c (proc_ind2 s) (proc_ind2 c)
    | PDecode m f bs off c => HDecode m f bs off c (proc_ind2 c)
    end.
End proc_ind2.

(* a failing source really fails: its error is not the nil error *)
Definition is_none (e : eclass) : bool := match e with ENone => true | _ => false end.
Fixpoint real_faults (p : proc) : bool :=
  match p with
  | PNil => true
  | PFail e => negb (is_none e)
  | PTokens _ c => real_faults c
  | PIterStream s c => real_faults s && real_faults c
  | PTee s _ c => real_faults s && real_faults c
  | PConcat ss => forallb real_faults ss
  | PFilter s _ c => real_faults s && real_faults c
  | PDeref s _ c => real_faults s && real_faults c
  | PDecode _ _ _ _ c => real_faults c
  end.

Lemma den_deref s res c :
  den (PDeref s res c) = seq_den (deref_den res (fst (den s)) (snd (den s))) (den c).
Proof.
  cbn [den]. unfold deref_den. destruct (den s) as [ts e]. cbn [fst snd].
  destruct (deref_list res ts) as [out e']. reflexivity.
Qed.

Theorem beh_den p : tame p = true -> real_faults p = true -> beh (den p) p.
Proof.
  induction p as [|ts c IHc|e|s c IHs IHc|s k c IHs IHc|ss IHss|s pr c IHs IHc|s r c IHs IHc|m f bs off c IHc]
    using proc_ind2; cbn [tame real_faults].
  - intros _ _. exact beh_nil.
  - intros Ht Hr. cbn [den]. apply beh_tokens. now apply IHc.
  - intros _ Hr. cbn [den]. apply beh_fail. destruct e; discriminate.
  - intros [Ht1 Ht2]%andb_prop [Hr1 Hr2]%andb_prop.
    cbn [den]. specialize (IHs Ht1 Hr1). destruct (den s) as [ts e]. apply beh_iter; [exact IHs|now apply IHc].
  - intros [[Ht1 Ht2]%andb_prop Htk]%andb_prop [Hr1 Hr2]%andb_prop.
    cbn [den]. specialize (IHs Ht1 Hr1). destruct (den s) as [ts e]. apply beh_tee; [exact IHs| |now apply IHc].
    rewrite forallb_forall in Htk. apply Forall_forall. intros x Hx. specialize (Htk x Hx).
    destruct x; try discriminate Htk; exact I.
  - intros Ht Hr. apply beh_concat. rewrite forallb_forall in Ht, Hr. rewrite Forall_forall in IHss.
    apply Forall_forall. intros x Hx. apply IHss; auto.
  - intros [Ht1 Ht2]%andb_prop [Hr1 Hr2]%andb_prop.
    cbn [den]. specialize (IHs Ht1 Hr1). destruct (den s) as [ts e]. apply beh_filter; [exact IHs|now apply IHc].
  - intros [Ht1 Ht2]%andb_prop [Hr1 Hr2]%andb_prop.
    rewrite den_deref. apply beh_deref; [exact (IHs Ht1 Hr1)|now apply IHc].
  - intros Ht Hr. cbn [den]. apply (beh_decode m f c (den c) (IHc Ht Hr) (S (length bs)) bs off). apply Nat.lt_succ_diag_r.
Qed.

Lemma behaves_run : forall ts e p, behaves ts e p ->
  exists n, forall fuel, n <= fuel -> exists lg, run fuel p = (ts, e, lg).
Proof.
  induction ts as [|t ts IH]; intros e p H.
  - destruct H as [[-> [l H]]|[He [l H]]]; destruct (nxt_fuel _ _ H) as (n & _ & Hn); exists (S n);
      intros fuel Hf; destruct (fuel_S _ _ Hf) as (f & -> & Hf'); cbn [run];
      rewrite Hn by exact (le_S _ _ Hf'); now exists l.
  - destruct H as (p' & l & H & Hb). destruct (nxt_fuel _ _ H) as (n & _ & Hn).
    destruct (IH e p' Hb) as [n' Hn']. exists (S (n + n')). intros fuel Hf.
    destruct (fuel_S _ _ Hf) as (f & -> & Hf'). cbn [run].
    rewrite Hn by exact (le_S _ _ (Nat.le_trans _ _ _ (Nat.le_add_r n n') Hf')). cbn [padd app].
    destruct (Hn' f (Nat.le_trans _ _ _ (Nat.le_add_l n' n) Hf')) as [lg' E]. rewrite E. now eexists.
Qed.

(* The statement with [tame p] alone is false: a "failing" source whose error is the nil
   error (PFail ENone) stops the run while the denotation continues with the continuation. *)
Theorem run_den_refuted :
  exists p, tame p = true /\ forall fuel, 3 <= fuel ->
    let '(ts, e, _) := run fuel p in (ts, e) <> den p.
Proof.
  exists (PIterStream (PFail ENone) (PTokens [T KNil VNone] PNil)). split; [reflexivity|].
  intros fuel Hf. destruct (fuel_S _ _ Hf) as (f2 & -> & Hf2). destruct (fuel_S _ _ Hf2) as (f1 & -> & Hf1).
  destruct (fuel_S _ _ Hf1) as (f & -> & _). cbn. discriminate.
Qed.

Theorem run_den_partial p : tame p = true -> real_faults p = true ->
  exists n, forall fuel, n <= fuel ->
    let '(ts, e, _) := run fuel p in (ts, e) = den p.
Proof.
  intros Ht Hr. pose proof (beh_den p Ht Hr) as H. unfold beh in H.
  destruct (behaves_run _ _ _ H) as [n Hn]. exists n. intros fuel Hf.
  destruct (Hn fuel Hf) as [lg E]. rewrite E. now destruct (den p).
Qed.

Example run_den_ex :
  let t1 := T KBool (VBool true) in let t2 := T KNil VNone in
  let r := T KRef (VBytes [1%N]) in
  let p := PTee (PConcat [PFilter (PTokens [t1; t2; t1] PNil) (PKindIn [KBool]) PNil;
                           PDeref (PTokens [t2; r; t2] PNil) [([1%N], RStream [t1; t1])] PNil;
                           PDecode 10 false [30%N; 40%N; 1%N] 0 (PTokens [t2] (PFail EFault))])
                [SRec 1 (Fin 2); SRec 2 ToEnd] PNil in
  tame p = true /\ real_faults p = true /\
  (let (x, _) := run 20 p in x) = den p /\
  den p = ([t1; t1; t2; t1; t1; t2; t2; t1; t2], EFault).
Proof. vm_compute. repeat split. Qed.

Theorem tee_transparent s sinks : den (PTee s sinks PNil) = den s.
Proof. apply seq_den_nil_r. Qed.

Theorem iter_stream_transparent s : den (PIterStream s PNil) = den s.
Proof. apply seq_den_nil_r. Qed.

Theorem iter_stream_then s c : den (PIterStream s c) = seq_den (den s) (den c).
Proof. reflexivity. Qed.

Theorem concat_is_concat ss :
  den (PConcat ss) = fold_right (fun s acc => seq_den (den s) acc) ([], ENone) ss.
Proof. reflexivity. Qed.

Theorem concat_tokens tss :
  den (PConcat (map (fun ts => PTokens ts PNil) tss)) = (concat tss, ENone).
Proof.
  induction tss as [|ts tss IH]; [reflexivity|].
  cbn [map]. rewrite concat_is_concat. cbn [fold_right]. rewrite <- concat_is_concat, IH.
  cbn [den]. now rewrite seq_den_nil_r.
Qed.

Theorem filter_is_filter ts p : den (PFilter (PTokens ts PNil) p PNil) = (filter (holds p) ts, ENone).
Proof.
  cbn [den]. now rewrite !seq_den_nil_r.
Qed.

(* the same for runs, e.g. for Tee with recording side sinks *)
Corollary run_tee_transparent s sinks :
  tame (PTee s sinks PNil) = true -> real_faults s = true ->
  exists n, forall fuel, n <= fuel ->
    let '(ts, e, _) := run fuel (PTee s sinks PNil) in (ts, e) = den s.
Proof.
  intros Ht Hr. rewrite <- (tee_transparent s sinks). apply run_den_partial; [exact Ht|].
  cbn [real_faults]. now rewrite Hr.
Qed.

Lemma seq_den_fst_prefix a b : exists y, fst (seq_den a b) = fst a ++ y.
Proof.
  destruct a as [ta ea]. destruct (enone_dec ea) as [->|He].
  - rewrite seq_den_clean. now exists (fst b).
  - rewrite seq_den_err by assumption. exists []. cbn [fst]. now rewrite app_nil_r.
Qed.

(* a' is the fault-free version of a *)
Definition hp (a a' : list token * eclass) : Prop :=
  (snd a = ENone -> a = a') /\ is_prefix (fst a) (fst a').

Lemma hp_refl a : hp a a.
Proof. split; [reflexivity|]. exists []. now rewrite app_nil_r. Qed.

Lemma hp_seq a a' b b' : hp a a' -> hp b b' -> hp (seq_den a b) (seq_den a' b').
Proof.
  intros [Ha1 [x Ha2]] [Hb1 [y Hb2]]. destruct a as [ta ea]. cbn [fst snd] in *.
  destruct (enone_dec ea) as [->|He].
  - rewrite <- (Ha1 eq_refl). rewrite !seq_den_clean. split.
    + cbn [snd]. intros H. now rewrite (Hb1 H).
    + cbn [fst]. exists y. rewrite Hb2. now rewrite app_assoc.
  - rewrite seq_den_err by assumption. split.
    + cbn [snd]. intros H. congruence.
    + cbn [fst]. destruct (seq_den_fst_prefix a' b') as [z Hz]. exists (x ++ z).
      rewrite Hz, Ha2. now rewrite app_assoc.
Qed.

Lemma hp_filter pr ts e ts' e' :
  hp (ts, e) (ts', e') -> hp (filter (holds pr) ts, e) (filter (holds pr) ts', e').
Proof.
  intros [H1 [x H2]]. cbn [fst snd] in *. split.
  - cbn [snd]. intros H. specialize (H1 H). now injection H1 as -> ->.
  - cbn [fst]. exists (filter (holds pr) x). rewrite H2. apply filter_app.
Qed.

Lemma deref_list_app res : forall a b,
  deref_list res (a ++ b) = seq_den (deref_list res a) (deref_list res b).
Proof.
  induction a as [|t a IH]; intros b.
  - cbn [app deref_list]. now rewrite seq_den_nil.
  - cbn [app]. rewrite !deref_list_cons, IH. pose proof (deref_act_err res t) as Herr.
    destruct (deref_act res t) as [|sub|e0]; [now destruct (deref_list res a); rewrite seq_den_app..|].
    now rewrite seq_den_err by now apply Herr.
Qed.

Lemma deref_den_snd res ts e :
  snd (deref_den res ts e) = ENone -> snd (deref_list res ts) = ENone /\ e = ENone.
Proof.
  unfold deref_den. destruct (deref_list res ts) as [out e1]. cbn [snd].
  destruct (enone_dec e1) as [->|He]; [auto|]. rewrite (keep_err e e1 He). intros ->. now destruct He.
Qed.

Lemma hp_deref res ts e ts' e' :
  hp (ts, e) (ts', e') -> hp (deref_den res ts e) (deref_den res ts' e').
Proof.
  intros [H1 [x H2]]. cbn [fst snd] in *. split.
  - intros H. apply deref_den_snd in H. destruct H as [_ He]. specialize (H1 He). now injection H1 as -> ->.
  - subst ts'. unfold deref_den. rewrite deref_list_app.
    destruct (seq_den_fst_prefix (deref_list res ts) (deref_list res x)) as [z Hz].
    destruct (deref_list res ts) as [out e1].
    destruct (seq_den (out, e1) (deref_list res x)) as [out2 e2]. cbn [fst] in *. now exists z.
Qed.

Lemma heal_hp p : hp (den p) (den (heal p)).
Proof.
  induction p as [|ts c IHc|e|s c IHs IHc|s k c IHs IHc|ss IHss|s pr c IHs IHc|s r c IHs IHc|m f bs off c IHc]
    using proc_ind2; cbn [heal].
  - apply hp_refl.
  - cbn [den]. apply hp_seq; [apply hp_refl|exact IHc].
  - cbn [den]. split; [cbn [snd]; now intros ->|]. now exists [].
  - cbn [den]. now apply hp_seq.
  - cbn [den]. now apply hp_seq.
  - induction IHss as [|s rest Hs Hrest IH]; [apply hp_refl|].
    cbn [map den fold_right] in *. apply hp_seq; [exact Hs|exact IH].
  - cbn [den]. destruct (den s) as [ts e], (den (heal s)) as [ts' e'].
    apply hp_seq; [now apply hp_filter|exact IHc].
  - rewrite !den_deref. apply hp_seq; [|exact IHc].
    destruct (den s) as [ts e], (den (heal s)) as [ts' e']. now apply hp_deref.
  - cbn [den]. destruct (decode_all (S (length bs)) m f bs off) as [ts d].
    apply hp_seq; [apply hp_refl|exact IHc].
Qed.

(* what a faulty stream delivers is a prefix of the fault-free stream *)
Theorem den_fault_prefix p : is_prefix (fst (den p)) (fst (den (heal p))).
Proof. exact (proj2 (heal_hp p)). Qed.

(* a fault is never turned into a clean end of stream *)
Theorem den_clean_means_no_fault p : snd (den p) = ENone -> den p = den (heal p).
Proof. exact (proj1 (heal_hp p)). Qed.

Example den_fault_ex :
  let t1 := T KBool (VBool true) in let t2 := T KNil VNone in
  let p := PConcat [PFilter (PTokens [t1; t2] (PFail EFault)) (PKindIn [KBool]) (PTokens [t2] PNil);
                    PTokens [t1] PNil] in
  den p = ([t1], EFault) /\ den (heal p) = ([t1; t2; t1], ENone).
Proof. vm_compute. split; reflexivity. Qed.

Lemma seq_den_propagates a b e :
  snd a = e -> e <> ENone -> seq_den a b = (fst a, e).
Proof. intros H He. destruct a as [ta ea]. cbn [fst snd] in *. subst ea. now apply seq_den_err. Qed.

Theorem den_fail_iter s c e :
  snd (den s) = e -> e <> ENone -> den (PIterStream s c) = (fst (den s), e).
Proof. intros H He. cbn [den]. now apply seq_den_propagates. Qed.

Theorem den_fail_tee s k c e :
  snd (den s) = e -> e <> ENone -> den (PTee s k c) = (fst (den s), e).
Proof. intros H He. cbn [den]. now apply seq_den_propagates. Qed.

Theorem den_fail_filter s pr c e :
  snd (den s) = e -> e <> ENone -> den (PFilter s pr c) = (filter (holds pr) (fst (den s)), e).
Proof.
  intros H He. cbn [den]. destruct (den s) as [ts e0]. cbn [fst snd] in *. subst e0. now apply seq_den_err.
Qed.

Theorem den_fail_tokens ts c e :
  snd (den c) = e -> snd (den (PTokens ts c)) = e.
Proof. intros H. cbn [den]. rewrite seq_den_clean. exact H. Qed.

(* ConcatStreams: the first failing element ends the concatenation with its error *)
Theorem den_fail_concat pre s post e :
  Forall (fun a => snd (den a) = ENone) pre -> snd (den s) = e -> e <> ENone ->
  den (PConcat (pre ++ s :: post)) = (flat_map (fun a => fst (den a)) pre ++ fst (den s), e).
Proof.
  intros Hpre H He. induction Hpre as [|a pre Ha Hpre IH].
  - cbn [app den fold_right flat_map]. now apply seq_den_propagates.
  - cbn [app den fold_right flat_map] in *. rewrite IH.
    destruct (den a) as [ta ea]. cbn [fst snd] in *. subst ea. rewrite seq_den_clean. cbn [fst snd].
    now rewrite app_assoc.
Qed.

(* Deref: the source's error, unless a resolver failed earlier *)
Theorem den_fail_deref s res c e :
  snd (den s) = e -> e <> ENone -> snd (deref_list res (fst (den s))) = ENone ->
  den (PDeref s res c) = (fst (deref_list res (fst (den s))), e).
Proof.
  intros H He Hd. rewrite den_deref. unfold deref_den.
  destruct (deref_list res (fst (den s))) as [out e1]. cbn [fst snd] in *. subst e1. rewrite H.
  now apply seq_den_err.
Qed.

Theorem den_fail_deref_any s res c :
  snd (den s) <> ENone -> snd (den (PDeref s res c)) <> ENone.
Proof.
  intros He. rewrite den_deref. unfold deref_den.
  destruct (deref_list res (fst (den s))) as [out e1].
  destruct (enone_dec e1) as [->|He1].
  - rewrite seq_den_err by assumption. exact He.
  - rewrite (keep_err _ e1 He1), seq_den_err by assumption. exact He1.
Qed.

Corollary run_fail_propagates p e :
  tame p = true -> real_faults p = true -> snd (den p) = e ->
  exists n, forall fuel, n <= fuel -> snd (fst (run fuel p)) = e.
Proof.
  intros Ht Hr He. destruct (run_den_partial p Ht Hr) as [n Hn]. exists n. intros fuel Hf.
  specialize (Hn fuel Hf). destruct (run fuel p) as [[ts e0] lg]. cbn [fst snd]. rewrite <- He, <- Hn. reflexivity.
Qed.

Print Assumptions run_den_partial.
Print Assumptions run_den_refuted.
Print Assumptions den_fault_prefix.
Print Assumptions den_clean_means_no_fault.
Print Assumptions den_fail_concat.
Print Assumptions den_fail_deref.
Print Assumptions run_fail_propagates.
