(* Proofs/AnyP.v — C11 "schema-less decoding is lossless": unmarshalling a canonical stream
   into an untyped (any) target and marshalling the result again yields the identical token
   stream; streams at the edges of the domain are rejected, never mis-decoded.

   The argument goes node by node.  [decoded x g] is what the node above an item x has to know of
   the value g the item decoded to; [runs] says that the recursive call decodes the items of a node
   one after the other.  From these, [unm_comp] gives the value the node decodes to and
   [decoded_comp] that this value is [decoded] again, wherever the values of the items come from
   (Proofs/AnyRegP.v takes them from the registry).  [any_decoded] and [any_unm_all] are the two
   inductions over the values of the domain, with [dec] for the decoded value. *)
From Coq Require Import Sorted List NArith ZArith Bool Lia ZifyBool ZifyNat ZifyN Arith.
From SbModel Require Import Spec.LexOrder Spec.Conform.
From SbModel Require Import Proofs.CompareP Proofs.UnmarshalP Proofs.MarshalP.
Import ListNotations.
Local Open Scope N_scope.

(* the kinds of the scalar-like leaves an `any` target accepts *)
Definition any_kinds : list N :=
  [KNil; KNaN; KBool; KInt; KInt8; KInt16; KInt32; KInt64; KUint; KUint8; KUint16; KUint32; KUint64;
   KPointer; KFloat32; KFloat64; KString; KBytes].
Definition any_kind (k : N) : bool := existsb (N.eqb k) any_kinds.

Definition leaf_ok (t : token) : bool := any_kind (kind t) && wf_cmp t.

Definition is_nil_leaf (v : value) : bool := match v with Leaf t => kind t =? KNil | _ => false end.

Definition key_ok (t : token) : bool := leaf_ok t && negb (kind t =? KNil) && negb (kind t =? KNaN).

Definition lt_prev (prev : option token) (k : token) : bool :=
  match prev with
  | None => true
  | Some p => match lex [p] [k] with Lt => true | _ => false end
  end.

Definition obj_ok (ok : value -> bool) : list bytes -> list value -> bool :=
  fix obj (seen : list bytes) (l : list value) {struct l} : bool :=
    match l with
    | [] => true
    | Leaf (T k (VStr n)) :: v :: r =>
        (k =? KString) && is_exported_ident n && negb (existsb (fun s => bytes_eqb s n) seen) &&
        ok v && negb (is_nil_leaf v) && obj (seen ++ [n]) r
    | _ => false
    end.

Definition map_ok (ok : value -> bool) : option token -> list value -> bool :=
  fix mp (prev : option token) (l : list value) {struct l} : bool :=
    match l with
    | [] => true
    | Leaf k :: v :: r => key_ok k && lt_prev prev k && ok v && mp (Some k) r
    | _ => false
    end.

(* the 50: unmarshal.go (unmarshalTuple) answers TooManyElement for a tuple of more than 50 values that is to be
   stored as a func() (...) value; [any_rejects_big_tuple] *)
Fixpoint any_okb (v : value) : bool :=
  match v with
  | Leaf t => leaf_ok t
  | Comp ko kc items =>
      if (ko =? KArray) && (kc =? KArrayEnd) then forallb any_okb items
      else if (ko =? KTuple) && (kc =? KTupleEnd) then forallb any_okb items && Nat.leb (length items) 50
      else if (ko =? KObject) && (kc =? KObjectEnd) then obj_ok any_okb [] items
      else if (ko =? KMap) && (kc =? KMapEnd) then map_ok any_okb None items
      else false
  | Named _ _ => false              (* values under a TypeName prefix: [any_ok_reg] of Proofs/AnyRegP.v *)
  end.

(* [R] is not looked at: no value of this domain carries a TypeName prefix *)
Definition any_ok (R : registry) (v : value) : Prop := any_okb v = true.

Lemma any_okb_comp ko kc items :
  any_okb (Comp ko kc items) =
  if (ko =? KArray) && (kc =? KArrayEnd) then forallb any_okb items
  else if (ko =? KTuple) && (kc =? KTupleEnd) then forallb any_okb items && Nat.leb (length items) 50
  else if (ko =? KObject) && (kc =? KObjectEnd) then obj_ok any_okb [] items
  else if (ko =? KMap) && (kc =? KMapEnd) then map_ok any_okb None items
  else false.
Proof. reflexivity. Qed.

Lemma obj_ok_cons ok seen k n v r :
  obj_ok ok seen (Leaf (T k (VStr n)) :: v :: r) =
  (k =? KString) && is_exported_ident n && negb (existsb (fun s => bytes_eqb s n) seen) &&
  ok v && negb (is_nil_leaf v) && obj_ok ok (seen ++ [n]) r.
Proof. reflexivity. Qed.

Lemma map_ok_cons ok prev k v r :
  map_ok ok prev (Leaf k :: v :: r) = key_ok k && lt_prev prev k && ok v && map_ok ok (Some k) r.
Proof. reflexivity. Qed.

Lemma obj_ok_one ok seen a : obj_ok ok seen [a] = false.
Proof. destruct a as [[k [ | | | | | | |s|]]| |]; reflexivity. Qed.

Lemma map_ok_one ok prev a : map_ok ok prev [a] = false.
Proof. destruct a; reflexivity. Qed.

Lemma forallb_Forall {A} (f : A -> bool) l : forallb f l = true -> Forall (fun x => f x = true) l.
Proof. intros H. apply Forall_forall, forallb_forall, H. Qed.

Lemma Forall2_map_r {A B} (P : A -> B -> Prop) (f : A -> B) l : Forall (fun x => P x (f x)) l -> Forall2 P l (map f l).
Proof. induction 1; constructor; assumption. Qed.

Lemma list_ind2 {A} (P : list A -> Prop) :
  P [] -> (forall a, P [a]) -> (forall a b r, P r -> P (a :: b :: r)) -> forall l, P l.
Proof.
  intros H0 H1 H2. fix IH 1. intros [|a [|b r]]; [exact H0|apply H1|apply H2, IH].
Qed.

(* The conditions on object and map items as inductive predicates, to do induction on, with any
   condition [okP] on the values: the element loops never look at it, and Proofs/AnyRegP.v has
   another one than [any_okb]. *)
Inductive obj_items (okP : value -> Prop) : list bytes -> list value -> Prop :=
| OI_nil seen : obj_items okP seen []
| OI_cons seen n v r :
    is_exported_ident n = true -> existsb (fun s => bytes_eqb s n) seen = false ->
    okP v -> is_nil_leaf v = false -> obj_items okP (seen ++ [n]) r ->
    obj_items okP seen (Leaf (T KString (VStr n)) :: v :: r).

Inductive map_items (okP : value -> Prop) : option token -> list value -> Prop :=
| MI_nil prev : map_items okP prev []
| MI_cons prev k v r :
    key_ok k = true -> lt_prev prev k = true -> okP v -> map_items okP (Some k) r ->
    map_items okP prev (Leaf k :: v :: r).

Lemma obj_ok_items ok : forall items seen, obj_ok ok seen items = true ->
  obj_items (fun v => ok v = true) seen items.
Proof.
  intros items. induction items as [|a|a b r IH] using list_ind2; intros seen H.
  - constructor.
  - rewrite obj_ok_one in H. discriminate H.
  - destruct a as [[k [ | | | | | | |n|]]| |]; try discriminate H. rewrite obj_ok_cons in H.
    apply andb_prop in H as [H Hr]. apply andb_prop in H as [H Hnil]. apply andb_prop in H as [H Hb].
    apply andb_prop in H as [H Hseen]. apply andb_prop in H as [Hk Hid].
    apply N.eqb_eq in Hk. subst k. apply negb_true_iff in Hnil, Hseen.
    constructor; try assumption. apply IH, Hr.
Qed.

Lemma map_ok_items ok : forall items prev, map_ok ok prev items = true ->
  map_items (fun v => ok v = true) prev items.
Proof.
  intros items. induction items as [|a|a b r IH] using list_ind2; intros prev H.
  - constructor.
  - rewrite map_ok_one in H. discriminate H.
  - destruct a as [k| |]; try discriminate H. rewrite map_ok_cons in H.
    apply andb_prop in H as [H Hr]. apply andb_prop in H as [H Hb]. apply andb_prop in H as [Hk Hlt].
    constructor; try assumption. apply IH, Hr.
Qed.

Lemma obj_items_all (okP : value -> Prop) :
  (forall n, is_exported_ident n = true -> okP (Leaf (T KString (VStr n)))) ->
  forall seen items, obj_items okP seen items -> Forall okP items.
Proof.
  intros Hname seen items H. induction H as [seen|seen n v r Hid _ Hv _ _ IH]; [constructor|].
  constructor; [apply Hname, Hid|]. constructor; assumption.
Qed.

Lemma map_items_all (okP : value -> Prop) : (forall k, key_ok k = true -> okP (Leaf k)) ->
  forall prev items, map_items okP prev items -> Forall okP items.
Proof.
  intros Hkey prev items H. induction H as [prev|prev k v r Hk _ Hv _ IH]; [constructor|].
  constructor; [apply Hkey, Hk|]. constructor; assumption.
Qed.

Inductive comp_shape (okP : value -> Prop) : N -> N -> list value -> Prop :=
| CS_array items : comp_shape okP KArray KArrayEnd items
| CS_tuple items : (length items <= 50)%nat -> comp_shape okP KTuple KTupleEnd items
| CS_object items : obj_items okP [] items -> comp_shape okP KObject KObjectEnd items
| CS_map items : map_items okP None items -> comp_shape okP KMap KMapEnd items.

Lemma kinds_eqb ko kc a b : (ko =? a) && (kc =? b) = true -> ko = a /\ kc = b.
Proof. rewrite andb_true_iff, !N.eqb_eq. intros H. exact H. Qed.

Definition leaf_gval (t : token) : gval :=
  if kind t =? KNil then GAny None
  else if kind t =? KNaN then GAny (Some (TF64, GF64 f64_nan_bits))
  else GAny (any_of_token t).

Fixpoint pairs {A} (l : list A) : list (A * A) :=
  match l with a :: b :: r => (a, b) :: pairs r | _ => [] end.

Definition gname (g : gval) : bytes := match g with GAny (Some (_, GStr s)) => s | _ => [] end.

(* toComparable: a []byte key becomes a byte array (the model's own [to_comparable]) *)
Definition to_cmp (k : gval) : gval := to_comparable k.

Definition dfields (l : list gval) : list (bytes * bool * ty) :=
  map (fun p => (gname (fst p), true, dyn_ty (snd p))) (pairs l).
Definition dvals (l : list gval) : list gval := map (fun p => dyn_val (snd p)) (pairs l).
Definition dentries (l : list gval) : list (gval * gval) := map (fun p => (to_cmp (fst p), snd p)) (pairs l).

Fixpoint dec (v : value) : gval :=
  match v with
  | Leaf t => leaf_gval t
  | Comp ko kc items =>
      let l := map dec items in
      if ko =? KArray then GAny (Some (TSlice TAny, GList (match l with [] => true | _ => false end) l))
      else if ko =? KObject then GAny (Some (TStruct (dfields l), GStruct (dvals l)))
      else if ko =? KMap then GAny (Some (TMap TAny TAny, GMap false (dentries l)))
      else GAny (Some (TFunc (map dyn_ty l), GFunc (Some (map dyn_val l))))
  | Named _ v => dec v
  end.

Definition comp_gval (ko : N) (l : list gval) : gval :=
  if ko =? KArray then GAny (Some (TSlice TAny, GList (match l with [] => true | _ => false end) l))
  else if ko =? KObject then GAny (Some (TStruct (dfields l), GStruct (dvals l)))
  else if ko =? KMap then GAny (Some (TMap TAny TAny, GMap false (dentries l)))
  else GAny (Some (TFunc (map dyn_ty l), GFunc (Some (map dyn_val l)))).

Lemma dec_comp ko kc items : dec (Comp ko kc items) = comp_gval ko (map dec items).
Proof. reflexivity. Qed.

Lemma comp_gval_array l :
  comp_gval KArray l = GAny (Some (TSlice TAny, GList (match l with [] => true | _ => false end) l)).
Proof. reflexivity. Qed.
Lemma comp_gval_object l : comp_gval KObject l = GAny (Some (TStruct (dfields l), GStruct (dvals l))).
Proof. reflexivity. Qed.
Lemma comp_gval_map l : comp_gval KMap l = GAny (Some (TMap TAny TAny, GMap false (dentries l))).
Proof. reflexivity. Qed.
Lemma comp_gval_tuple l : comp_gval KTuple l = GAny (Some (TFunc (map dyn_ty l), GFunc (Some (map dyn_val l)))).
Proof. reflexivity. Qed.

Lemma comp_gval_some ko l : exists t y, comp_gval ko l = GAny (Some (t, y)).
Proof.
  unfold comp_gval. destruct (ko =? KArray); [eexists; eexists; reflexivity|].
  destruct (ko =? KObject); [eexists; eexists; reflexivity|].
  destruct (ko =? KMap); eexists; eexists; reflexivity.
Qed.

Lemma dfields_cons a b l : dfields (a :: b :: l) = (gname a, true, dyn_ty b) :: dfields l.
Proof. reflexivity. Qed.
Lemma dvals_cons a b l : dvals (a :: b :: l) = dyn_val b :: dvals l.
Proof. reflexivity. Qed.
Lemma dentries_cons a b l : dentries (a :: b :: l) = (to_cmp a, b) :: dentries l.
Proof. reflexivity. Qed.

Inductive leaf_view : token -> Prop :=
| LV_nil : leaf_view (T KNil VNone)
| LV_nan : leaf_view (T KNaN VNone)
| LV_bool b : leaf_view (T KBool (VBool b))
| LV_int w z : leaf_view (T (kind_of_int w) (VI w z))
| LV_uint w n : leaf_view (T (kind_of_uint w) (VU w n))
| LV_ptr n : leaf_view (T KPointer (VPtr n))
| LV_f32 b : f32_is_nan b = false -> leaf_view (T KFloat32 (VF32 b))
| LV_f64 b : f64_is_nan b = false -> leaf_view (T KFloat64 (VF64 b))
| LV_str s : leaf_view (T KString (VStr s))
| LV_bytes s : leaf_view (T KBytes (VBytes s)).

(* [kind_shape] gives the few kinds a payload may come with; [any_kind] then keeps one or two *)
Lemma leaf_ok_view t : leaf_ok t = true -> leaf_view t.
Proof.
  destruct t as [k v]. unfold leaf_ok, wf_cmp, wf_token. cbn [kind val].
  intros H. apply andb_prop in H as [Hk H]. apply andb_prop in H as [H Hnan]. apply andb_prop in H as [Hs _].
  destruct v as [|b|w z|w n|n|b|b|s|s]; cbn [kind_shape not_nan_payload] in Hs, Hnan.
  - apply existsb_exists in Hs. destruct Hs as (x & Hin & Hx). apply N.eqb_eq in Hx. subst x.
    cbn [In] in Hin. repeat (destruct Hin as [<-|Hin]); [..|contradiction Hin];
      try discriminate Hk; constructor.
  - apply N.eqb_eq in Hs. subst k. constructor.
  - replace k with (kind_of_int w) by (destruct w; symmetry; apply N.eqb_eq, Hs). constructor.
  - replace k with (kind_of_uint w) by (destruct w; symmetry; apply N.eqb_eq, Hs). constructor.
  - apply N.eqb_eq in Hs. subst k. constructor.
  - apply N.eqb_eq in Hs. subst k. constructor. apply negb_true_iff, Hnan.
  - apply N.eqb_eq in Hs. subst k. constructor. apply negb_true_iff, Hnan.
  - apply orb_prop in Hs as [Hs|Hs]; [apply orb_prop in Hs as [Hs|Hs]|]; apply N.eqb_eq in Hs; subst k;
      try discriminate Hk. constructor.
  - apply orb_prop in Hs as [Hs|Hs]; apply N.eqb_eq in Hs; subst k; try discriminate Hk. constructor.
Qed.

Lemma end_kind_false k : is_end_kind k = false ->
  (k =? KArrayEnd) = false /\ (k =? KObjectEnd) = false /\ (k =? KMapEnd) = false /\ (k =? KTupleEnd) = false.
Proof.
  unfold is_end_kind. intros H. apply orb_false_elim in H as [H H4]. apply orb_false_elim in H as [H H3].
  apply orb_false_elim in H as [H1 H2]. repeat split; assumption.
Qed.

Lemma any_kind_not_end k : any_kind k = true -> is_end_kind k = false.
Proof.
  intros Hk. destruct (is_end_kind k) eqn:He; [|reflexivity]. unfold is_end_kind in He.
  apply orb_prop in He as [He|He]; [apply orb_prop in He as [He|He]; [apply orb_prop in He as [He|He]|]|];
    apply N.eqb_eq in He; subst k; discriminate Hk.
Qed.

Lemma leaf_ok_kind t : leaf_ok t = true -> any_kind (kind t) = true.
Proof. unfold leaf_ok. intros H. apply andb_true_iff in H. apply H. Qed.

Lemma leaf_ok_wf t : leaf_ok t = true -> wf_cmp t = true.
Proof. unfold leaf_ok. intros H. apply andb_true_iff in H. apply H. Qed.

Lemma key_ok_inv t : key_ok t = true -> leaf_ok t = true /\ kind t <> KNil /\ kind t <> KNaN.
Proof.
  unfold key_ok. intros H. apply andb_prop in H as [H Hnan]. apply andb_prop in H as [H Hnil].
  apply negb_true_iff, N.eqb_neq in Hnan, Hnil. repeat split; assumption.
Qed.

Lemma ident_wf n : is_exported_ident n = true -> wf_bytesb n = true.
Proof.
  assert (Hc : forall c, is_ident_char c = true -> wf_byteb c = true).
  { intros c H. unfold is_ident_char, is_upper in H. unfold wf_byteb. lia. }
  destruct n as [|c r]; [discriminate|]. cbn [is_exported_ident]. intros H.
  apply andb_true_iff in H. destruct H as [Hu Hr]. cbn [wf_bytesb forallb]. apply andb_true_iff. split.
  - unfold is_upper in Hu. unfold wf_byteb. lia.
  - apply forallb_forall. intros c' Hin. apply Hc. rewrite forallb_forall in Hr. apply Hr, Hin.
Qed.

Lemma name_leaf_ok n : is_exported_ident n = true -> leaf_ok (T KString (VStr n)) = true.
Proof.
  intros H. unfold leaf_ok, wf_cmp, wf_token. cbn [kind val wf_val not_nan_payload].
  rewrite (ident_wf n H). reflexivity.
Qed.

Section LeafSteps.
Variable pf : bytes -> N -> option N.
Variable o : copts.
Variable R : registry.

(* One step of [unm] on a concrete first token: [unm_S], and the kernel evaluates [ustep]
   (unfolding [ustep] and its parts by tactics first leaves a much larger term to check). *)
Lemma leaf_unm f t rest : leaf_ok t = true ->
  unm pf (S f) o R TAny (GAny None) (t :: rest) = Ok (leaf_gval t, rest).
Proof.
  intros H. rewrite (unm_S pf f o R).
  destruct (leaf_ok_view t H) as [| |b|w z|w n|n|b Hb|b Hb|s|s]; try reflexivity; destruct w; reflexivity.
Qed.

Lemma unm_any_array f cur rest :
  unm pf (S f) o R TAny cur (T KArray VNone :: rest) =
  bind (slice_loop (unm pf f o R) (S (length rest)) TAny [] rest) (fun r =>
    Ok (GAny (Some (TSlice TAny, GList (match fst r with [] => true | _ => false end) (fst r))), snd r)).
Proof. apply unm_array_tok; reflexivity. Qed.

Lemma unm_any_object f cur rest :
  unm pf (S f) o R TAny cur (T KObject VNone :: rest) =
  newstruct_loop (unm pf f o R) (S (length rest)) [] [] rest.
Proof. apply unm_object_tok; reflexivity. Qed.

Lemma unm_any_map f cur rest :
  unm pf (S f) o R TAny cur (T KMap VNone :: rest) = genmap_loop (unm pf f o R) (S (length rest)) [] rest.
Proof. apply unm_map_tok; reflexivity. Qed.

Lemma unm_any_tuple f cur rest :
  unm pf (S f) o R TAny cur (T KTuple VNone :: rest) =
  bind (tuple_loop (unm pf f o R) (S (length rest)) [] [] [] rest) (fun r =>
    let '(_, vals, tys, rest') := r in
    if Nat.ltb 50 (length vals) then Err ETooMany
    else Ok (GAny (Some (TFunc tys, GFunc (Some vals))), rest')).
Proof. apply unm_tuple_tok; reflexivity. Qed.

Theorem any_rejects_literal f cur s rest :
  unm pf (S f) o R TAny cur (T KLiteral (VStr s) :: rest) = Err EBadTarget.
Proof. rewrite (unm_S pf f o R). reflexivity. Qed.

Theorem any_rejects_min f cur rest : unm pf (S f) o R TAny cur (T KMin VNone :: rest) = Err EBadKind.
Proof. rewrite (unm_S pf f o R). reflexivity. Qed.

Theorem any_rejects_max f cur rest : unm pf (S f) o R TAny cur (T KMax VNone :: rest) = Err EBadKind.
Proof. rewrite (unm_S pf f o R). reflexivity. Qed.

Theorem any_rejects_ref f cur v rest : unm pf (S f) o R TAny cur (T KRef v :: rest) = Err EBadKind.
Proof. rewrite (unm_S pf f o R). destruct v; reflexivity. Qed.

(* a TypeName prefix whose name is not registered is dropped: the rest is decoded as if the
   prefix were absent (so such streams do not round trip) *)
Theorem any_unregistered_name_dropped f cur n ts : reg_lookup R n = None ->
  unm pf (S f) o R TAny cur (T KTypeName (VStr n) :: ts) = unm pf f o R TAny cur ts.
Proof.
  intros Hn. rewrite unm_dispatch, dispatch_typename by (reflexivity || (intros _; reflexivity)).
  unfold typename_case. cbn [underlying val]. rewrite Hn. reflexivity.
Qed.

End LeafSteps.

Lemma leaf_marshal t : leaf_ok t = true -> marshal default_opts TAny (leaf_gval t) = Ok [t].
Proof.
  intros H. destruct (leaf_ok_view t H) as [| |b|w z|w n|n|b Hb|b Hb|s|s]; try reflexivity.
  - destruct w; reflexivity.
  - destruct w; reflexivity.
  - change (leaf_gval (T KFloat32 (VF32 b))) with (GAny (Some (TF32, GF32 b))).
    rewrite marshal_any. apply marshal_f32_num, Hb.
  - change (leaf_gval (T KFloat64 (VF64 b))) with (GAny (Some (TF64, GF64 b))).
    rewrite marshal_any. apply marshal_f64_num, Hb.
Qed.

Lemma marshal_dyn o g : marshal o (dyn_ty g) (dyn_val g) = marshal o TAny g.
Proof.
  destruct g as [ | | | | | | | | | | |[[t x]|]| |]; try reflexivity.
  cbn [dyn_ty dyn_val]. symmetry. apply marshal_any.
Qed.

Definition key_gval (k : token) : gval := to_cmp (leaf_gval k).

Lemma key_gval_form k : key_ok k = true ->
  exists kt kv, key_gval k = GAny (Some (kt, kv)) /\ comparable_ty kt = true /\
                match kv with GF64 b => f64_is_nan b | GF32 b => f32_is_nan b | _ => false end = false.
Proof.
  intros H. apply key_ok_inv in H. destruct H as (H & Hnil & Hnan).
  destruct (leaf_ok_view k H) as [| |b|w z|w n|n|b Hb|b Hb|s|s];
    try (exfalso; apply Hnil; reflexivity); try (exfalso; apply Hnan; reflexivity).
  - exists TBool, (GBool b). repeat split.
  - exists (TInt w), (GInt z). destruct w; repeat split.
  - exists (TUint w), (GUint n). destruct w; repeat split.
  - exists TUintptr, (GUint n). repeat split.
  - exists TF32, (GF32 b). repeat split. exact Hb.
  - exists TF64, (GF64 b). repeat split. exact Hb.
  - exists TString, (GStr s). repeat split.
  - exists (TByteArray (length s)), (GBytes false s). repeat split.
Qed.

Lemma tc_marshal o t v : marshal o t (to_comparable v) = marshal o t v.
Proof.
  destruct v as [| | | | | | | | | | |[[st sv]|]| |]; try reflexivity.
  destruct st; try reflexivity. destruct sv; reflexivity.
Qed.

Lemma key_marshal k : key_ok k = true -> marshal default_opts TAny (key_gval k) = Ok [k].
Proof. intros H. unfold key_gval, to_cmp. rewrite tc_marshal. apply leaf_marshal, key_ok_inv, H. Qed.

Lemma lex_one q k : lex [q] [k] = tok_ord q k.
Proof. cbn [lex]. destruct (tok_ord q k); reflexivity. Qed.

Lemma key_gval_int w z : key_gval (T (kind_of_int w) (VI w z)) = GAny (Some (TInt w, GInt z)).
Proof. destruct w; reflexivity. Qed.
Lemma key_gval_uint w n : key_gval (T (kind_of_uint w) (VU w n)) = GAny (Some (TUint w, GUint n)).
Proof. destruct w; reflexivity. Qed.

Lemma bytes_cmp_lt_neq s s' : bytes_cmp s s' = Lt -> bytes_eqb s s' = false.
Proof.
  intros Hlt. destruct (bytes_eqb s s') eqn:E; [|reflexivity].
  apply bytes_eqb_true in E. subst s'. rewrite bytes_cmp_refl in Hlt. discriminate Hlt.
Qed.

Lemma key_fresh q k : key_ok q = true -> key_ok k = true -> lex [q] [k] = Lt ->
  gkey_eqb (key_gval q) (key_gval k) = false.
Proof.
  intros Hq Hk Hlt. rewrite lex_one in Hlt. unfold tok_ord in Hlt.
  apply key_ok_inv in Hq. destruct Hq as (Hq & Hqnil & Hqnan).
  apply key_ok_inv in Hk. destruct Hk as (Hk & Hknil & Hknan).
  destruct (leaf_ok_view q Hq) as [| |b|w z|w n|n|b Hb|b Hb|s|s];
    [destruct Hqnil; reflexivity|destruct Hqnan; reflexivity|..];
  (destruct (leaf_ok_view k Hk) as [| |b'|w' z'|w' n'|n'|b' Hb'|b' Hb'|s'|s'];
    [destruct Hknil; reflexivity|destruct Hknan; reflexivity|..]);
  rewrite ?key_gval_int, ?key_gval_uint; try reflexivity;
  (* same kind of key on both sides: the order on the payloads is strict *)
  cbn [kind val] in Hlt.
  - destruct b, b'; try reflexivity; discriminate Hlt.
  - change (gkey_eqb (GAny (Some (TInt w, GInt z))) (GAny (Some (TInt w', GInt z'))))
      with (width_eqb w w' && (z =? z')%Z).
    destruct (width_eqb w w') eqn:Ew; [|reflexivity]. apply width_eqb_true in Ew. subst w'.
    rewrite N.compare_refl in Hlt. cbn [val_ord] in Hlt. rewrite Z.eqb_compare, Hlt. reflexivity.
  - change (gkey_eqb (GAny (Some (TUint w, GUint n))) (GAny (Some (TUint w', GUint n'))))
      with (width_eqb w w' && (n =? n')).
    destruct (width_eqb w w') eqn:Ew; [|reflexivity]. apply width_eqb_true in Ew. subst w'.
    rewrite N.compare_refl in Hlt. cbn [val_ord] in Hlt. rewrite N.eqb_compare, Hlt. reflexivity.
  - change (gkey_eqb (key_gval (T KPointer (VPtr n))) (key_gval (T KPointer (VPtr n')))) with (n =? n').
    change ((n ?= n') = Lt) in Hlt. rewrite N.eqb_compare, Hlt. reflexivity.
  - change (gkey_eqb (key_gval (T KFloat32 (VF32 b))) (key_gval (T KFloat32 (VF32 b')))) with (f32_eq b b').
    change ((f32_key b ?= f32_key b')%Z = Lt) in Hlt. unfold f32_eq. rewrite Z.eqb_compare, Hlt. apply andb_false_r.
  - change (gkey_eqb (key_gval (T KFloat64 (VF64 b))) (key_gval (T KFloat64 (VF64 b')))) with (f64_eq b b').
    change ((f64_key b ?= f64_key b')%Z = Lt) in Hlt. unfold f64_eq. rewrite Z.eqb_compare, Hlt. apply andb_false_r.
  - change (gkey_eqb (key_gval (T KString (VStr s))) (key_gval (T KString (VStr s')))) with (bytes_eqb s s').
    change (bytes_cmp s s' = Lt) in Hlt. apply bytes_cmp_lt_neq, Hlt.
  - change (gkey_eqb (key_gval (T KBytes (VBytes s))) (key_gval (T KBytes (VBytes s'))))
      with (Nat.eqb (length s) (length s') && bytes_eqb s s').
    change (bytes_cmp s s' = Lt) in Hlt. rewrite (bytes_cmp_lt_neq s s' Hlt). apply andb_false_r.
Qed.

Lemma flatten_nonempty v : (1 <= length (flatten v))%nat.
Proof. destruct v; cbn [flatten length]; lia. Qed.

Lemma flat_len items : (length items <= length (flat_map flatten items))%nat.
Proof.
  induction items as [|x r IH]; cbn [flat_map length]; [lia|].
  rewrite app_length. pose proof (flatten_nonempty x). lia.
Qed.

(* the fuel the element loops get, the length of the stream, is enough for the items in it *)
Lemma items_fuel items tail : (length items <= length (flat_map flatten items ++ tail))%nat.
Proof. rewrite app_length. apply Nat.le_trans with (1 := flat_len items), Nat.le_add_r. Qed.

Lemma pairs_len {A} (l : list A) : (length (pairs l) <= length l)%nat.
Proof. induction l as [|a|a b r IH] using list_ind2; cbn [pairs length]; lia. Qed.

Lemma comp_len ko kc items : length (flatten (Comp ko kc items)) = S (S (length (flat_map flatten items))).
Proof. cbn [flatten length]. rewrite app_length. cbn [length]. lia. Qed.

Lemma comp_stream ko kc items rest :
  flatten (Comp ko kc items) ++ rest = T ko VNone :: flat_map flatten items ++ T kc VNone :: rest.
Proof. cbn [flatten app]. rewrite <- app_assoc. reflexivity. Qed.

(* the first token of an item is never an end marker: the element loops go on *)
Definition okhd (x : value) : Prop := exists tk tl, flatten x = tk :: tl /\ is_end_kind (kind tk) = false.

Lemma okhd_leaf t : leaf_ok t = true -> okhd (Leaf t).
Proof. intros H. exists t, []. split; [reflexivity|]. apply any_kind_not_end, leaf_ok_kind, H. Qed.

Lemma okhd_comp okP ko kc items : comp_shape okP ko kc items -> okhd (Comp ko kc items).
Proof.
  intros H. exists (T ko VNone), (flat_map flatten items ++ [T kc VNone]). split; [reflexivity|].
  destruct H; reflexivity.
Qed.

Lemma okhd_app x more : okhd x -> exists tk tl, flatten x ++ more = tk :: tl /\
  (kind tk =? KArrayEnd) = false /\ (kind tk =? KObjectEnd) = false /\ (kind tk =? KMapEnd) = false /\ (kind tk =? KTupleEnd) = false.
Proof. intros (tk & tl & E & He). exists tk, (tl ++ more). rewrite E. split; [reflexivity|apply end_kind_false, He]. Qed.

(* [g] may stand for item [x] in the decoded value of the node above it: it marshals to the stream
   of [x]; for a leaf it is [leaf_gval] (map keys and field names are read off it); and it is a
   non-nil interface unless [x] is the Nil leaf (StructOf needs the field's dynamic type) *)
Definition decoded (x : value) (g : gval) : Prop :=
  marshal default_opts TAny g = Ok (flatten x) /\
  (forall k, x = Leaf k -> g = leaf_gval k) /\
  (is_nil_leaf x = false -> exists t y, g = GAny (Some (t, y))).

Lemma leaf_decoded t : leaf_ok t = true -> decoded (Leaf t) (leaf_gval t).
Proof.
  intros H. split; [apply leaf_marshal, H|]. split; [intros k [= <-]; reflexivity|].
  cbn [is_nil_leaf]. intros Hnil.
  destruct (leaf_ok_view t H) as [| |b|w z|w n|n|b Hb|b Hb|s|s]; try (eexists; eexists; reflexivity).
  - discriminate Hnil.
  - exists (TInt w), (GInt z). destruct w; reflexivity.
  - exists (TUint w), (GUint n). destruct w; reflexivity.
Qed.

Lemma existsb_fname n fs :
  existsb (fun fd => bytes_eqb (fname fd) n) fs = existsb (fun s => bytes_eqb s n) (map fname fs).
Proof. induction fs as [|fd fs IH]; cbn [existsb map]; [reflexivity|]. rewrite IH. reflexivity. Qed.

Lemma map_set_fresh k v m : Forall (fun e => gkey_eqb (fst e) k = false) m -> map_set k v m = m ++ [(k, v)].
Proof.
  induction 1 as [|[k' v'] m Hk _ IH]; [reflexivity|].
  cbn [map_set app]. cbn [fst] in Hk. rewrite Hk, IH. reflexivity.
Qed.

(* every admissible next key is absent from the entries collected so far *)
Definition fresh_inv (prev : option token) (m : list (gval * gval)) : Prop :=
  match prev with Some p => key_ok p = true | None => True end /\
  forall k, key_ok k = true -> lt_prev prev k = true ->
            Forall (fun e => gkey_eqb (fst e) (key_gval k) = false) m.

Lemma fresh_inv_nil : fresh_inv None [].
Proof. split; [exact I|]. intros k _ _. constructor. Qed.

Lemma key_ok_wfs k : key_ok k = true -> wf_cmps [k].
Proof. intros H. apply key_ok_inv in H. constructor; [apply leaf_ok_wf, H|constructor]. Qed.

Lemma lt_prev_some p k : lt_prev (Some p) k = true -> lex [p] [k] = Lt.
Proof. cbn [lt_prev]. destruct (lex [p] [k]); intros H; try discriminate H; reflexivity. Qed.

Lemma fresh_inv_step prev m k x : fresh_inv prev m -> key_ok k = true -> lt_prev prev k = true ->
  fresh_inv (Some k) (m ++ [(key_gval k, x)]).
Proof.
  intros [Hp Hinv] Hk Hlt. split; [exact Hk|]. intros k' Hk' Hlt'.
  apply lt_prev_some in Hlt'. apply Forall_app. split.
  - apply Hinv; [exact Hk'|]. destruct prev as [p|]; [|reflexivity].
    apply lt_prev_some in Hlt. cbn [lt_prev].
    rewrite (lex_lt_trans [p] [k] [k'] (key_ok_wfs p Hp) (key_ok_wfs k Hk) (key_ok_wfs k' Hk') Hlt Hlt').
    reflexivity.
  - constructor; [|constructor]. cbn [fst]. apply key_fresh; assumption.
Qed.

Section Loops.
Variable rec : rec_t.

(* the recursive call decodes the items one after the other, each in front of the streams of the
   items after it and of [tail] *)
Inductive runs (tail : list token) : list value -> list gval -> Prop :=
| runs_nil : runs tail [] []
| runs_cons x r g gs :
    okhd x -> decoded x g ->
    rec TAny (GAny None) (flatten x ++ flat_map flatten r ++ tail) = Ok (g, flat_map flatten r ++ tail) ->
    runs tail r gs -> runs tail (x :: r) (g :: gs).

Lemma runs_decoded tail items gs : runs tail items gs -> Forall2 decoded items gs.
Proof. induction 1 as [|x r g gs _ Hd _ _ IH]; constructor; assumption. Qed.

Lemma runs_length tail items gs : runs tail items gs -> length gs = length items.
Proof. induction 1 as [|x r g gs _ _ _ _ IH]; cbn [length]; [reflexivity|]. rewrite IH. reflexivity. Qed.

Lemma runs_inv2 tail a b r gs : runs tail (a :: b :: r) gs ->
  exists ga gb gr, gs = ga :: gb :: gr /\ decoded a ga /\ decoded b gb /\
    rec TAny (GAny None) (flatten a ++ flatten b ++ flat_map flatten r ++ tail)
      = Ok (ga, flatten b ++ flat_map flatten r ++ tail) /\
    rec TAny (GAny None) (flatten b ++ flat_map flatten r ++ tail) = Ok (gb, flat_map flatten r ++ tail) /\
    runs tail r gr.
Proof.
  intros H. inversion H as [|x1 r1 ga gs1 _ Da Ha H1]; subst.
  inversion H1 as [|x2 r2 gb gr _ Db Hb Hr]; subst.
  cbn [flat_map] in Ha. rewrite <- app_assoc in Ha. exists ga, gb, gr.
  split; [reflexivity|]. split; [exact Da|]. split; [exact Db|]. split; [exact Ha|]. split; [exact Hb|exact Hr].
Qed.

Lemma slice_loop_any rest : forall items gs, runs (T KArrayEnd VNone :: rest) items gs ->
  forall g acc, (length items <= g)%nat ->
  slice_loop rec (S g) TAny acc (flat_map flatten items ++ T KArrayEnd VNone :: rest) = Ok (acc ++ gs, rest).
Proof.
  induction 1 as [|x r g0 gs Hhd _ Hrec _ IH]; intros g acc Hg.
  - cbn [flat_map app slice_loop kind]. rewrite app_nil_r. reflexivity.
  - destruct g as [|g]; [destruct (Nat.nle_succ_0 _ Hg)|]. apply le_S_n in Hg.
    cbn [flat_map]. rewrite <- app_assoc.
    destruct (okhd_app x (flat_map flatten r ++ T KArrayEnd VNone :: rest) Hhd) as (tk & tl & E & Ha & _).
    rewrite (slice_loop_step rec (S g) TAny acc _ tk tl E Ha). cbn [zero]. rewrite Hrec. cbn [bind fst snd].
    rewrite (IH g (acc ++ [g0]) Hg), <- app_assoc. reflexivity.
Qed.

Lemma tuple_loop_any rest : forall items gs, runs (T KTupleEnd VNone :: rest) items gs ->
  forall g tys vals, (length items <= g)%nat ->
  tuple_loop rec (S g) [] tys vals (flat_map flatten items ++ T KTupleEnd VNone :: rest)
  = Ok ([], vals ++ map dyn_val gs, tys ++ map dyn_ty gs, rest).
Proof.
  induction 1 as [|x r g0 gs Hhd _ Hrec _ IH]; intros g tys vals Hg.
  - cbn [flat_map app tuple_loop kind map]. rewrite !app_nil_r. reflexivity.
  - destruct g as [|g]; [destruct (Nat.nle_succ_0 _ Hg)|]. apply le_S_n in Hg.
    cbn [flat_map]. rewrite <- app_assoc.
    destruct (okhd_app x (flat_map flatten r ++ T KTupleEnd VNone :: rest) Hhd) as (tk & tl & E & _ & _ & _ & Ht).
    rewrite (tuple_loop_step rec (S g) [] tys vals _ tk tl E Ht), Hrec. cbn [bind fst snd].
    rewrite (IH g _ _ Hg). cbn [map]. rewrite <- (app_assoc vals), <- (app_assoc tys). reflexivity.
Qed.

Lemma genmap_loop_entry g m k b more gb : key_ok k = true ->
  rec TAny (GAny None) (flatten (Leaf k) ++ flatten b ++ more) = Ok (leaf_gval k, flatten b ++ more) ->
  rec TAny (GAny None) (flatten b ++ more) = Ok (gb, more) ->
  genmap_loop rec (S g) m (flatten (Leaf k) ++ flatten b ++ more)
  = genmap_loop rec g (map_set (key_gval k) gb m) more.
Proof.
  intros Hk Hrk Hrb.
  destruct (okhd_app (Leaf k) (flatten b ++ more) (okhd_leaf k (proj1 (key_ok_inv k Hk)))) as (tk & tl & E & _ & _ & Hm & _).
  rewrite (genmap_loop_step rec g m _ tk tl E Hm), Hrk. cbn [bind fst snd].
  change (to_comparable (leaf_gval k)) with (key_gval k).
  destruct (key_gval_form k Hk) as (kt & kv & Ek & Hc & Hn).
  rewrite Ek. cbv beta iota. rewrite Hc, Hn, Hrb. reflexivity.
Qed.

Lemma genmap_loop_any okP rest : forall prev items, map_items okP prev items ->
  forall gs, runs (T KMapEnd VNone :: rest) items gs ->
  forall g m, fresh_inv prev m -> (length (pairs items) <= g)%nat ->
  genmap_loop rec (S g) m (flat_map flatten items ++ T KMapEnd VNone :: rest)
  = Ok (GAny (Some (TMap TAny TAny, GMap false (m ++ dentries gs))), rest).
Proof.
  induction 1 as [prev|prev k b r Hk Hlt _ _ IH]; intros gs Hrun g m Hinv Hg.
  - inversion Hrun; subst. cbn [flat_map app genmap_loop kind]. rewrite app_nil_r. reflexivity.
  - apply runs_inv2 in Hrun. destruct Hrun as (gk & gb & gr & -> & Dk & _ & Hrk & Hrb & Hrun).
    rewrite (proj1 (proj2 Dk) k eq_refl) in Hrk |- *.
    cbn [pairs length] in Hg. destruct g as [|g]; [destruct (Nat.nle_succ_0 _ Hg)|]. apply le_S_n in Hg.
    cbn [flat_map]. rewrite <- (app_assoc (flatten (Leaf k))), <- (app_assoc (flatten b)).
    rewrite (genmap_loop_entry (S g) m k b _ gb Hk Hrk Hrb), (map_set_fresh _ _ m (proj2 Hinv k Hk Hlt)).
    rewrite (IH gr Hrun g _ (fresh_inv_step prev m k gb Hinv Hk Hlt) Hg), dentries_cons, <- app_assoc.
    reflexivity.
Qed.

Hypothesis Hname : forall s cur rest', rec TString cur (T KString (VStr s) :: rest') = Ok (GStr s, rest').

Lemma newstruct_loop_field g fs vals n ts :
  is_exported_ident n = true -> existsb (fun fd => bytes_eqb (fname fd) n) fs = false ->
  newstruct_loop rec (S g) fs vals (T KString (VStr n) :: ts) =
  bind (rec TAny (GAny None) ts) (fun r =>
    match fst r with
    | GAny (Some (vt, v)) => newstruct_loop rec g (fs ++ [(n, true, vt)]) (vals ++ [v]) (snd r)
    | _ => Err EEnd
    end).
Proof.
  intros Hid Hdup. rewrite (newstruct_loop_step rec g fs vals _ (T KString (VStr n)) ts eq_refl eq_refl), Hname.
  cbn [bind fst snd]. rewrite Hid, Hdup. reflexivity.
Qed.

(* a prefix of well-formed fields is consumed, one unit of loop fuel per field *)
Lemma newstruct_loop_prefix okP more : forall seen pre, obj_items okP seen pre ->
  forall gs, runs more pre gs ->
  forall g fs vals, map fname fs = seen -> (length (pairs pre) <= g)%nat ->
  newstruct_loop rec g fs vals (flat_map flatten pre ++ more)
  = newstruct_loop rec (g - length (pairs pre)) (fs ++ dfields gs) (vals ++ dvals gs) more.
Proof.
  induction 1 as [seen|seen n b r Hid Hseen _ Hnil _ IH]; intros gs Hrun g fs vals Hfs Hg.
  - inversion Hrun; subst. cbn [pairs length flat_map app]. rewrite Nat.sub_0_r, !app_nil_r. reflexivity.
  - apply runs_inv2 in Hrun. destruct Hrun as (gn & gb & gr & -> & Dn & Db & _ & Hrb & Hrun).
    rewrite (proj1 (proj2 Dn) _ eq_refl). destruct (proj2 (proj2 Db) Hnil) as (vt & y & ->).
    cbn [pairs length] in Hg |- *. destruct g as [|g]; [destruct (Nat.nle_succ_0 _ Hg)|]. apply le_S_n in Hg.
    cbn [Nat.sub flat_map]. change (flatten (Leaf (T KString (VStr n)))) with [T KString (VStr n)].
    cbn [app]. rewrite <- app_assoc.
    rewrite newstruct_loop_field; [|exact Hid|rewrite existsb_fname, Hfs; exact Hseen].
    rewrite Hrb. cbn [bind fst snd].
    rewrite (IH gr Hrun g (fs ++ [(n, true, vt)]) (vals ++ [y])); [|rewrite map_app, Hfs; reflexivity|exact Hg].
    rewrite dfields_cons, dvals_cons, <- (app_assoc fs), <- (app_assoc vals). reflexivity.
Qed.

End Loops.

Arguments runs_decoded {rec tail items gs}.
Arguments runs_length {rec tail items gs}.
Arguments slice_loop_any {rec rest items gs}.
Arguments tuple_loop_any {rec rest items gs}.
Arguments genmap_loop_any {rec okP rest prev items} _ {gs}.
Arguments newstruct_loop_prefix {rec} Hname {okP more seen pre} _ {gs}.

Lemma marshal_list_any items gs : Forall2 decoded items gs ->
  marshal_list default_opts TAny gs = Ok (flat_map flatten items).
Proof.
  induction 1 as [|x g l gs Hx _ IH]; [reflexivity|].
  cbn [flat_map]. rewrite marshal_list_cons, (proj1 Hx). cbn [bind]. rewrite IH. reflexivity.
Qed.

Lemma marshal_outs_any items gs : Forall2 decoded items gs ->
  marshal_outs default_opts (map dyn_val gs) (map dyn_ty gs) = Ok (flat_map flatten items).
Proof.
  induction 1 as [|x g l gs Hx _ IH]; [reflexivity|].
  cbn [map flat_map]. rewrite marshal_outs_cons, marshal_dyn, (proj1 Hx). cbn [bind]. rewrite IH. reflexivity.
Qed.

Lemma Forall2_inv2 {A B} (P : A -> B -> Prop) a b r l : Forall2 P (a :: b :: r) l ->
  exists a' b' r', l = a' :: b' :: r' /\ P a a' /\ P b b' /\ Forall2 P r r'.
Proof.
  intros H. inversion H as [|x1 a' l1 l1' Ha H1]; subst. inversion H1 as [|x2 b' l2 r' Hb Hr]; subst.
  exists a', b', r'. repeat split; assumption.
Qed.

Lemma marshal_fields_any okP : forall seen items, obj_items okP seen items ->
  forall gs, Forall2 decoded items gs ->
  marshal_fields default_opts (dvals gs) (dfields gs) = Ok (flat_map flatten items).
Proof.
  induction 1 as [seen|seen n b r _ _ _ _ _ IH]; intros gs HF.
  - inversion HF; subst. reflexivity.
  - apply Forall2_inv2 in HF. destruct HF as (gn & gb & gr & -> & Dn & Db & HF).
    rewrite (proj1 (proj2 Dn) _ eq_refl), dfields_cons, dvals_cons, marshal_fields_cons.
    change (skip_empty default_opts) with false. cbn [andb fexported fname fst snd negb].
    rewrite marshal_dyn, (proj1 Db). cbn [bind]. rewrite (IH _ HF). reflexivity.
Qed.

(* the entries of a decoded map: sort key, emitted key, emitted value *)
Definition ents (items : list value) : list entry :=
  map (fun p => (flatten (fst p), flatten (fst p), flatten (snd p))) (pairs items).

Lemma ents_cons a b r : ents (a :: b :: r) = (flatten a, flatten a, flatten b) :: ents r.
Proof. reflexivity. Qed.

Lemma marshal_entries_any okP : forall prev items, map_items okP prev items ->
  forall gs, Forall2 decoded items gs ->
  marshal_entries default_opts TAny TAny (dentries gs) = Ok (ents items).
Proof.
  induction 1 as [prev|prev k b r Hk _ _ _ IH]; intros gs HF.
  - inversion HF; subst. reflexivity.
  - apply Forall2_inv2 in HF. destruct HF as (gk & gb & gr & -> & Dk & Db & HF).
    rewrite (proj1 (proj2 Dk) _ eq_refl), dentries_cons. fold (key_gval k).
    rewrite marshal_entries_cons, (key_marshal k Hk). cbn [bind].
    change (bad_map_key [k]) with (kind k =? KNaN).
    destruct (key_ok_inv k Hk) as (_ & _ & Hnan). apply N.eqb_neq in Hnan. rewrite Hnan.
    rewrite (IH _ HF). cbn [bind]. rewrite (proj1 Db). reflexivity.
Qed.

Lemma ents_stream okP : forall prev items, map_items okP prev items ->
  flat_map (fun e : list token * list token * list token => snd (fst e) ++ snd e) (ents items) = flat_map flatten items.
Proof.
  induction 1 as [prev|prev k b r _ _ _ _ IH]; [reflexivity|].
  rewrite ents_cons. cbn [flat_map fst snd]. rewrite IH, <- app_assoc. reflexivity.
Qed.

Lemma ents_sorted okP : forall prev items, map_items okP prev items ->
  Sorted (fun a b => key_le a b = true) (ents items).
Proof.
  induction 1 as [prev|prev k b r Hk _ _ Hr IH]; [constructor|].
  rewrite ents_cons. constructor; [exact IH|].
  inversion Hr as [|? k' b' r' Hk' Hlt']; subst; [constructor|]. rewrite ents_cons. constructor.
  unfold key_le. cbn [fst flatten].
  rewrite (cmp_is_lex [k] [k'] (key_ok_wfs k Hk) (key_ok_wfs k' Hk')), (lt_prev_some k k' Hlt'). reflexivity.
Qed.

Lemma decoded_comp okP ko kc items gs : comp_shape okP ko kc items -> Forall2 decoded items gs ->
  decoded (Comp ko kc items) (comp_gval ko gs).
Proof.
  intros Hsh HF. split; [|split; [intros k [=]|intros _; apply comp_gval_some]].
  cbn [flatten]. destruct Hsh as [items|items _|items Hobj|items Hmap].
  - rewrite comp_gval_array, marshal_any, (marshal_unreg _ (TSlice TAny)) by reflexivity.
    cbn [marshal_body]. change (elem_ty (TSlice TAny)) with TAny.
    rewrite (marshal_list_any items gs HF). reflexivity.
  - rewrite comp_gval_tuple, marshal_any, (marshal_unreg _ (TFunc _)) by reflexivity.
    cbn [marshal_body]. change (ignore_funcs default_opts) with false. cbn beta iota.
    change (func_outs (TFunc (map dyn_ty gs))) with (map dyn_ty gs).
    rewrite (marshal_outs_any items gs HF). reflexivity.
  - rewrite comp_gval_object, marshal_any, (marshal_unreg _ (TStruct _)) by reflexivity.
    cbn [marshal_body]. change (struct_fs (TStruct (dfields gs))) with (dfields gs).
    rewrite (marshal_fields_any okP [] items Hobj gs HF). reflexivity.
  - rewrite comp_gval_map, marshal_any, (marshal_unreg _ (TMap TAny TAny)) by reflexivity.
    cbn [marshal_body]. change (map_kt (TMap TAny TAny)) with TAny. change (map_vt (TMap TAny TAny)) with TAny.
    rewrite (marshal_entries_any okP None items Hmap gs HF). cbn [bind]. unfold map_stream.
    rewrite (sort_entries_id _ (ents_sorted okP None items Hmap)), (ents_stream okP None items Hmap). reflexivity.
Qed.

Section Node.
Variable pf : bytes -> N -> option N.
Variable o : copts.
Variable R : registry.

Lemma unm_comp okP f ko kc items gs rest : comp_shape okP ko kc items ->
  runs (unm pf f o R) (T kc VNone :: rest) items gs -> (1 <= f)%nat ->
  unm pf (S f) o R TAny (GAny None) (flatten (Comp ko kc items) ++ rest) = Ok (comp_gval ko gs, rest).
Proof.
  intros Hsh Hrun Hf. rewrite comp_stream.
  pose proof (items_fuel items (T kc VNone :: rest)) as Hg.
  pose proof (Nat.le_trans _ _ _ (pairs_len items) Hg) as Hp.
  destruct Hsh as [items|items H50|items Hobj|items Hmap].
  - rewrite unm_any_array, (slice_loop_any Hrun _ [] Hg). reflexivity.
  - rewrite unm_any_tuple, (tuple_loop_any Hrun _ [] [] Hg).
    cbn [bind app]. rewrite map_length, (runs_length Hrun), (proj2 (Nat.ltb_ge 50 (length items)) H50).
    reflexivity.
  - rewrite unm_any_object.
    rewrite (newstruct_loop_prefix (unm_name_fuel pf o R f Hf) Hobj Hrun _ [] [] eq_refl (le_S _ _ Hp)).
    rewrite (Nat.sub_succ_l _ _ Hp). cbn [newstruct_loop kind app]. reflexivity.
  - rewrite unm_any_map, (genmap_loop_any Hmap Hrun _ [] fresh_inv_nil Hp).
    reflexivity.
Qed.

End Node.

Lemma any_okb_comp_inv ko kc items : any_okb (Comp ko kc items) = true ->
  comp_shape (fun v => any_okb v = true) ko kc items /\ Forall (fun v => any_okb v = true) items.
Proof.
  rewrite any_okb_comp. intros H.
  destruct ((ko =? KArray) && (kc =? KArrayEnd)) eqn:E.
  { apply kinds_eqb in E. destruct E as [-> ->]. split; [constructor|apply forallb_Forall, H]. }
  clear E. destruct ((ko =? KTuple) && (kc =? KTupleEnd)) eqn:E.
  { apply kinds_eqb in E. destruct E as [-> ->]. apply andb_prop in H as [H H50].
    split; [constructor; apply Nat.leb_le, H50|apply forallb_Forall, H]. }
  clear E. destruct ((ko =? KObject) && (kc =? KObjectEnd)) eqn:E.
  { apply kinds_eqb in E. destruct E as [-> ->]. apply obj_ok_items in H.
    split; [constructor; exact H|apply (obj_items_all _ name_leaf_ok _ _ H)]. }
  clear E. destruct ((ko =? KMap) && (kc =? KMapEnd)) eqn:E; [|discriminate H].
  apply kinds_eqb in E. destruct E as [-> ->]. apply map_ok_items in H.
  split; [constructor; exact H|apply (map_items_all _ (fun k Hk => proj1 (key_ok_inv k Hk)) _ _ H)].
Qed.

Lemma any_okb_hd v : any_okb v = true -> okhd v.
Proof.
  destruct v as [t|ko kc items|n v]; intros H.
  - apply okhd_leaf, H.
  - apply (okhd_comp (fun v => any_okb v = true)), any_okb_comp_inv, H.
  - discriminate H.
Qed.

Theorem any_decoded : forall v, any_okb v = true -> decoded v (dec v).
Proof.
  induction v as [t|ko kc items IH|n v IH] using value_ind2; intros Hok.
  - apply leaf_decoded, Hok.
  - destruct (any_okb_comp_inv ko kc items Hok) as [Hsh Hall].
    rewrite dec_comp. apply (decoded_comp _ ko kc items _ Hsh), Forall2_map_r, (BytesP.Forall_mp _ _ _ IH Hall).
  - discriminate Hok.
Qed.

Section Decode.
Variable pf : bytes -> N -> option N.
Variable o : copts.
Variable R : registry.

Definition unm_ok (v : value) : Prop :=
  any_okb v = true -> forall f rest, (length (flatten v) <= f)%nat ->
  unm pf f o R TAny (GAny None) (flatten v ++ rest) = Ok (dec v, rest).

Lemma runs_dec f tail : forall items, Forall unm_ok items -> Forall (fun v => any_okb v = true) items ->
  (length (flat_map flatten items) <= f)%nat -> runs (unm pf f o R) tail items (map dec items).
Proof.
  induction 1 as [|x l Hx _ IH]; intros Hok Hf; [constructor|].
  pose proof (Forall_inv Hok) as Hox.
  cbn [flat_map] in Hf. rewrite app_length in Hf. cbn [map]. constructor.
  - apply any_okb_hd, Hox.
  - apply any_decoded, Hox.
  - apply Hx; [exact Hox|clear - Hf; lia].
  - apply IH; [exact (Forall_inv_tail Hok)|clear - Hf; lia].
Qed.

Theorem any_unm_all : forall v, unm_ok v.
Proof.
  induction v as [t|ko kc items IH|n v IH] using value_ind2; intros Hok f rest Hf.
  - destruct f as [|f]; [destruct (Nat.nle_succ_0 _ Hf)|]. apply leaf_unm, Hok.
  - rewrite comp_len in Hf. destruct f as [|f]; [destruct (Nat.nle_succ_0 _ Hf)|].
    destruct (any_okb_comp_inv ko kc items Hok) as [Hsh Hall].
    rewrite dec_comp. apply (unm_comp pf o R _ f ko kc items _ rest Hsh); [apply runs_dec; [exact IH|exact Hall|]|];
      clear - Hf; lia.
  - discriminate Hok.
Qed.

Lemma runs_any f tail items : Forall (fun v => any_okb v = true) items ->
  (length (flat_map flatten items) <= f)%nat -> runs (unm pf f o R) tail items (map dec items).
Proof. apply runs_dec, Forall_forall. intros x _. apply any_unm_all. Qed.

End Decode.

Theorem any_unm pf o R v f rest : any_ok R v -> (length (flatten v) <= f)%nat ->
  unm pf f o R TAny (GAny None) (flatten v ++ rest) = Ok (dec v, rest).
Proof. intros Hok Hf. apply any_unm_all; assumption. Qed.

Theorem any_marshal R v : any_ok R v -> marshal default_opts TAny (dec v) = Ok (flatten v).
Proof. intros Hok. apply any_decoded, Hok. Qed.

Theorem any_roundtrip pf o R v rest : any_ok R v ->
  exists f g, unm pf f o R TAny (GAny None) (flatten v ++ rest) = Ok (g, rest) /\
              marshal default_opts TAny g = Ok (flatten v).
Proof.
  intros Hok. exists (length (flatten v)), (dec v). split.
  - apply (any_unm pf o R v _ rest Hok). lia.
  - apply (any_marshal R v Hok).
Qed.

Corollary any_roundtrip_stable pf o R v rest : any_ok R v ->
  exists g, marshal default_opts TAny g = Ok (flatten v) /\
            exists f0, forall f, (f0 <= f)%nat -> unm pf f o R TAny (GAny None) (flatten v ++ rest) = Ok (g, rest).
Proof.
  intros Hok. exists (dec v). split; [apply (any_marshal R v Hok)|].
  exists (length (flatten v)). intros f Hf. apply (any_unm pf o R v f rest Hok Hf).
Qed.

Definition field_names (items : list value) : list bytes :=
  map (fun p => match fst p with Leaf (T _ (VStr n)) => n | _ => [] end) (pairs items).

Lemma dfields_names okP : forall seen items, obj_items okP seen items ->
  map fname (dfields (map dec items)) = field_names items.
Proof.
  induction 1 as [seen|seen n b r _ _ _ _ _ IH]; [reflexivity|].
  cbn [map]. rewrite dfields_cons. unfold field_names. cbn [map pairs fname fst]. fold (field_names r).
  rewrite IH. reflexivity.
Qed.

Theorem any_rejects_nil_field pf o R pre n more f :
  obj_ok any_okb [] pre = true -> is_exported_ident n = true ->
  existsb (fun s => bytes_eqb s n) (field_names pre) = false ->
  (length (flat_map flatten pre) + 3 <= f)%nat ->
  unm pf f o R TAny (GAny None)
      (T KObject VNone :: flat_map flatten pre ++ T KString (VStr n) :: T KNil VNone :: more) = Err EEnd.
Proof.
  intros Hok Hid Hdup Hf. apply obj_ok_items in Hok.
  destruct f as [|[|f]]; [clear - Hf; lia..|].
  assert (Hf' : (length (flat_map flatten pre) <= S f)%nat) by (clear - Hf; lia).
  pose proof (unm_name_fuel pf o R (S f) (le_n_S _ _ (Nat.le_0_l f))) as Hname.
  pose proof (runs_any pf o R (S f) (T KString (VStr n) :: T KNil VNone :: more) pre
                (obj_items_all _ name_leaf_ok _ _ Hok) Hf') as Hrun.
  pose proof (Nat.le_trans _ _ _ (pairs_len pre) (items_fuel pre (T KString (VStr n) :: T KNil VNone :: more))) as Hp.
  rewrite unm_any_object.
  rewrite (newstruct_loop_prefix Hname Hok Hrun _ [] [] eq_refl (le_S _ _ Hp)).
  rewrite (Nat.sub_succ_l _ _ Hp). cbn [app].
  rewrite (newstruct_loop_field _ Hname); [|exact Hid|rewrite existsb_fname, (dfields_names _ [] pre Hok); exact Hdup].
  rewrite (leaf_unm pf o R f (T KNil VNone) more eq_refl). reflexivity.
Qed.

(* what the generic map loop refuses as a key: a nil interface, a dynamic type that is not
   comparable, a NaN *)
Definition bad_key (g : gval) : bool :=
  match to_cmp g with
  | GAny None => true
  | GAny (Some (kt, kv)) =>
      negb (comparable_ty kt) || match kv with GF64 b => f64_is_nan b | GF32 b => f32_is_nan b | _ => false end
  | _ => false
  end.

Lemma any_rejects_key pf o R f x more g : okhd x ->
  unm pf f o R TAny (GAny None) (flatten x ++ more) = Ok (g, more) -> bad_key g = true ->
  unm pf (S f) o R TAny (GAny None) (T KMap VNone :: flatten x ++ more) = Err EBadMapKey.
Proof.
  intros Hhd Hu Hbad. destruct (okhd_app x more Hhd) as (tk & tl & E & _ & _ & Hm & _).
  rewrite unm_any_map, (genmap_loop_step _ _ [] _ tk tl E Hm), Hu. cbn [bind fst snd].
  change (to_comparable g) with (to_cmp g).
  unfold bad_key in Hbad. destruct (to_cmp g) as [ | | | | | | | | | | |[[kt kv]|]| |]; try discriminate Hbad.
  - destruct (comparable_ty kt); [|reflexivity]. cbn [negb orb] in Hbad |- *. rewrite Hbad. reflexivity.
  - reflexivity.
Qed.

Theorem any_rejects_composite_key pf o R ko kc items more f :
  any_okb (Comp ko kc items) = true -> ko <> KObject ->
  (length (flatten (Comp ko kc items)) + 1 <= f)%nat ->
  unm pf f o R TAny (GAny None) (T KMap VNone :: flatten (Comp ko kc items) ++ more) = Err EBadMapKey.
Proof.
  intros Hok Hno Hf. destruct f as [|f]; [lia|].
  apply (any_rejects_key pf o R f (Comp ko kc items) more (dec (Comp ko kc items))).
  - apply any_okb_hd, Hok.
  - apply (any_unm_all pf o R _ Hok). lia.
  - destruct (proj1 (any_okb_comp_inv ko kc items Hok)); try reflexivity. contradiction Hno. reflexivity.
Qed.

Theorem any_rejects_nil_key pf o R more f :
  unm pf (S (S f)) o R TAny (GAny None) (T KMap VNone :: T KNil VNone :: more) = Err EBadMapKey.
Proof.
  apply (any_rejects_key pf o R (S f) (Leaf (T KNil VNone)) more (leaf_gval (T KNil VNone)));
    [apply okhd_leaf|apply leaf_unm|]; reflexivity.
Qed.

Theorem any_rejects_nan_key pf o R more f :
  unm pf (S (S f)) o R TAny (GAny None) (T KMap VNone :: T KNaN VNone :: more) = Err EBadMapKey.
Proof.
  apply (any_rejects_key pf o R (S f) (Leaf (T KNaN VNone)) more (leaf_gval (T KNaN VNone)));
    [apply okhd_leaf|apply leaf_unm|]; reflexivity.
Qed.

Theorem any_rejects_big_tuple pf o R items rest f :
  forallb any_okb items = true -> (50 < length items)%nat ->
  (length (flatten (Comp KTuple KTupleEnd items)) <= f)%nat ->
  unm pf f o R TAny (GAny None) (flatten (Comp KTuple KTupleEnd items) ++ rest) = Err ETooMany.
Proof.
  intros Hok H50 Hf. rewrite comp_len in Hf. destruct f as [|f]; [destruct (Nat.nle_succ_0 _ Hf)|].
  apply le_S_n, Nat.lt_le_incl in Hf.
  rewrite comp_stream, unm_any_tuple.
  rewrite (tuple_loop_any (runs_any pf o R f _ items (forallb_Forall _ _ Hok) Hf) _ [] [] (items_fuel items _)).
  cbn [bind app]. rewrite !map_length, (proj2 (Nat.ltb_lt 50 (length items)) H50). reflexivity.
Qed.

Definition pf0 : bytes -> N -> option N := fun _ _ => None.

(* { A: [nil, {1: "x", 2: 0x010203}], B: (true, 3.5) } *)
Definition ex_any : value :=
  Comp KObject KObjectEnd
    [Leaf (T KString (VStr [65]));
     Comp KArray KArrayEnd
       [Leaf (T KNil VNone);
        Comp KMap KMapEnd [Leaf (T KInt (VI WNat 1)); Leaf (T KString (VStr [120]));
                           Leaf (T KInt (VI WNat 2)); Leaf (T KBytes (VBytes [1; 2; 3]))]];
     Leaf (T KString (VStr [66]));
     Comp KTuple KTupleEnd [Leaf (T KBool (VBool true)); Leaf (T KFloat64 (VF64 4615063718147915776))]].

Definition ex_any_g : gval :=
  GAny (Some (TStruct [([65], true, TSlice TAny); ([66], true, TFunc [TBool; TF64])],
              GStruct
                [GList false
                   [GAny None;
                    GAny (Some (TMap TAny TAny,
                                GMap false
                                  [(GAny (Some (TInt WNat, GInt 1)), GAny (Some (TString, GStr [120])));
                                   (GAny (Some (TInt WNat, GInt 2)), GAny (Some (TBytes, GBytes false [1; 2; 3])))]))];
                 GFunc (Some [GBool true; GF64 4615063718147915776])])).

(* the hypothesis of any_roundtrip holds of it, and the witnesses are these *)
Example any_roundtrip_ex :
  any_ok [] ex_any /\ dec ex_any = ex_any_g /\
  unm pf0 (length (flatten ex_any)) default_opts [] TAny (GAny None) (flatten ex_any ++ [T KBool (VBool false)])
    = Ok (ex_any_g, [T KBool (VBool false)]) /\
  marshal default_opts TAny ex_any_g = Ok (flatten ex_any).
Proof. split; [|split; [|split]]; vm_compute; reflexivity. Qed.

(* the hypotheses of the rejection theorems are satisfiable *)
Example any_rejects_nil_field_ex :
  let pre := [Leaf (T KString (VStr [65])); Leaf (T KInt (VI WNat 1))] in
  obj_ok any_okb [] pre = true /\ is_exported_ident [66] = true /\
  existsb (fun s => bytes_eqb s [66]) (field_names pre) = false /\
  unm pf0 20 default_opts [] TAny (GAny None)
    (T KObject VNone :: flat_map flatten pre ++ [T KString (VStr [66]); T KNil VNone; T KObjectEnd VNone]) = Err EEnd.
Proof. split; [|split; [|split]]; vm_compute; reflexivity. Qed.

Example any_rejects_composite_key_ex :
  any_okb (Comp KArray KArrayEnd []) = true /\
  unm pf0 20 default_opts [] TAny (GAny None)
    (T KMap VNone :: flatten (Comp KArray KArrayEnd []) ++ [T KInt (VI WNat 1); T KMapEnd VNone]) = Err EBadMapKey.
Proof. split; vm_compute; reflexivity. Qed.

Example any_rejects_big_tuple_ex :
  let items := repeat (Leaf (T KNil VNone)) 51 in
  forallb any_okb items = true /\
  unm pf0 200 default_opts [] TAny (GAny None) (flatten (Comp KTuple KTupleEnd items)) = Err ETooMany /\
  exists g, unm pf0 200 default_opts [] TAny (GAny None)
              (flatten (Comp KTuple KTupleEnd (repeat (Leaf (T KNil VNone)) 50))) = Ok (g, []).
Proof. split; [|split]; [vm_compute; reflexivity|vm_compute; reflexivity|]. eexists. vm_compute. reflexivity. Qed.

Example any_rejects_tokens_ex :
  unm pf0 20 default_opts [] TAny (GAny None) [T KLiteral (VStr [49])] = Err EBadTarget /\
  unm pf0 20 default_opts [] TAny (GAny None) [T KMin VNone] = Err EBadKind /\
  unm pf0 20 default_opts [] TAny (GAny None) [T KMax VNone] = Err EBadKind /\
  unm pf0 20 default_opts [] TAny (GAny None) [T KRef (VBytes [1])] = Err EBadKind /\
  unm pf0 20 default_opts [] TAny (GAny None) [T KTypeName (VStr [80]); T KInt (VI WNat 1)]
    = Ok (GAny (Some (TInt WNat, GInt 1)), []).
Proof. split; [|split; [|split; [|split]]]; vm_compute; reflexivity. Qed.

(* why the keys of the domain are ascending: a map stream with descending keys is accepted but
   comes back reordered, so it does not round trip *)
Example any_unsorted_map_normalized :
  let ts := [T KMap VNone; T KInt (VI WNat 2); T KNil VNone; T KInt (VI WNat 1); T KNil VNone; T KMapEnd VNone] in
  let g := GAny (Some (TMap TAny TAny, GMap false [(GAny (Some (TInt WNat, GInt 2)), GAny None);
                                                  (GAny (Some (TInt WNat, GInt 1)), GAny None)])) in
  unm pf0 20 default_opts [] TAny (GAny None) ts = Ok (g, []) /\
  marshal default_opts TAny g =
    Ok [T KMap VNone; T KInt (VI WNat 1); T KNil VNone; T KInt (VI WNat 2); T KNil VNone; T KMapEnd VNone].
Proof. split; vm_compute; reflexivity. Qed.

Definition AnyP_main_theorems :=
  (any_roundtrip, any_roundtrip_stable, any_unm, any_marshal,
   any_rejects_nil_field, any_rejects_composite_key, any_rejects_nil_key, any_rejects_nan_key,
   any_rejects_big_tuple, any_rejects_literal, any_rejects_min, any_rejects_max, any_rejects_ref,
   any_unregistered_name_dropped).
Print Assumptions AnyP_main_theorems.

