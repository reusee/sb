(* Proofs/CompareP.v — Compare is the documented order (C06); Compare, CompareBytes and
   Compare over the two segmenting decoders agree (C07).  In the order of the file:
   three-way comparisons of linear preorders (trans3, linear, pair_cmp, list_cmp), bytes_cmp as an instance;
   kinds and value shapes of well-formed tokens (same_kind, wf_same_kind);
   C06: Compare computes lex (cmp_is_lex); lex is a total preorder on well-formed streams, through the keys
     vkey and tkey (lex_refl, lex_antisym, lex_trans and its strict forms); lex_eq_iff, tok_same_wf,
     lex_prefix, min_max, nan_payload_irreflexive;
   C07: CompareBytes on the encodings (cb_token, bytes_route); Compare over the segmenting decoder
     (segments_like_unsplit, seg_step, decode_cmp_encode, segmented_route); routes_agree. *)
From Coq Require Import List NArith ZArith Bool Lia ZifyBool ZifyNat ZifyN.
From SbModel Require Import Base.Bytes Base.Tokens Base.Floats Model.Codec Model.Compare.
From SbModel Require Import Spec.LexOrder Spec.DecodeGrammar.
From SbModel Require Import Proofs.BytesP Proofs.CodecP.
Import ListNotations.
Local Open Scope N_scope.

Definition trans3 (xy yz xz : comparison) : Prop :=
  (xy = Eq -> xz = yz) /\ (yz = Eq -> xz = xy) /\ (xy = Lt -> yz = Lt -> xz = Lt).

Record linear {A : Type} (cmp : A -> A -> comparison) : Prop := {
  lin_antisym : forall x y, cmp y x = CompOpp (cmp x y);
  lin_trans : forall x y z, trans3 (cmp x y) (cmp y z) (cmp x z) }.
Arguments lin_antisym {A cmp}.
Arguments lin_trans {A cmp}.

(* Whatever the first two comparisons are, either they fix the third or the claim is vacuous. *)
Lemma trans3_then c12 c23 c13 d12 d23 d13 : trans3 c12 c23 c13 -> trans3 d12 d23 d13 ->
  trans3 (match c12 with Eq => d12 | Lt => Lt | Gt => Gt end)
         (match c23 with Eq => d23 | Lt => Lt | Gt => Gt end)
         (match c13 with Eq => d13 | Lt => Lt | Gt => Gt end).
Proof.
  unfold trans3. intros (C1 & C2 & C3) D.
  destruct c12, c23; try rewrite (C1 eq_refl); try rewrite (C2 eq_refl); try rewrite (C3 eq_refl eq_refl);
    try exact D; repeat split; congruence.
Qed.

Section Linear.
  Context {A : Type} {cmp : A -> A -> comparison} (L : linear cmp).

  Lemma lin_refl x : cmp x x = Eq.
  Proof. pose proof (lin_antisym L x x) as H. destruct (cmp x x); [reflexivity | discriminate H | discriminate H]. Qed.

  Lemma lin_lt_trans x y z : cmp x y = Lt -> cmp y z = Lt -> cmp x z = Lt.
  Proof. apply (lin_trans L x y z). Qed.

  Lemma lin_lt_le x y z : cmp x y = Lt -> cmp y z <> Gt -> cmp x z = Lt.
  Proof. destruct (lin_trans L x y z) as (_ & E & T). destruct (cmp y z); [intros <-; auto | auto | contradiction]. Qed.

  Lemma lin_le_lt x y z : cmp x y <> Gt -> cmp y z = Lt -> cmp x z = Lt.
  Proof. destruct (lin_trans L x y z) as (E & _ & T). destruct (cmp x y); [intros _ <-; auto | auto | contradiction]. Qed.

  Lemma lin_le_trans x y z : cmp x y <> Gt -> cmp y z <> Gt -> cmp x z <> Gt.
  Proof.
    intros Hxy Hyz. destruct (cmp x y) eqn:E.
    - destruct (lin_trans L x y z) as (-> & _); assumption.
    - rewrite (lin_lt_le x y z E Hyz). discriminate.
    - contradiction.
  Qed.
End Linear.

Lemma linear_N : linear N.compare.
Proof.
  split; [intros x y; apply N.compare_antisym|]. intros x y z. repeat split.
  - intros H. apply N.compare_eq in H. subst y. reflexivity.
  - intros H. apply N.compare_eq in H. subst z. reflexivity.
  - rewrite !N.compare_lt_iff. apply N.lt_trans.
Qed.

Lemma linear_Z : linear Z.compare.
Proof.
  split; [intros x y; apply Z.compare_antisym|]. intros x y z. repeat split.
  - intros H. apply Z.compare_eq in H. subst y. reflexivity.
  - intros H. apply Z.compare_eq in H. subst z. reflexivity.
  - rewrite !Z.compare_lt_iff. apply Z.lt_trans.
Qed.

Definition pair_cmp {A B : Type} (ca : A -> A -> comparison) (cb : B -> B -> comparison)
  (x y : A * B) : comparison :=
  match ca (fst x) (fst y) with Eq => cb (snd x) (snd y) | c => c end.

Lemma linear_pair {A B : Type} (ca : A -> A -> comparison) (cb : B -> B -> comparison) :
  linear ca -> linear cb -> linear (pair_cmp ca cb).
Proof.
  intros La Lb. split; unfold pair_cmp.
  - intros x y. rewrite (lin_antisym La (fst x) (fst y)).
    destruct (ca (fst x) (fst y)); cbn [CompOpp]; [apply (lin_antisym Lb) | reflexivity | reflexivity].
  - intros x y z. exact (trans3_then _ _ _ _ _ _ (lin_trans La _ _ _) (lin_trans Lb _ _ _)).
Qed.

(* lexicographic order on lists, a proper prefix first: the common shape of bytes_cmp and lex *)
Section ListCmp.
  Context {A : Type} (cmp : A -> A -> comparison).

  Fixpoint list_cmp (a b : list A) : comparison :=
    match a, b with
    | [], [] => Eq
    | [], _ :: _ => Lt
    | _ :: _, [] => Gt
    | x :: a', y :: b' => match cmp x y with Eq => list_cmp a' b' | c => c end
    end.

  Lemma list_cmp_refl : (forall x, cmp x x = Eq) -> forall a, list_cmp a a = Eq.
  Proof.
    intros R a. induction a as [|x a IH]; cbn [list_cmp]; [reflexivity|].
    rewrite R. exact IH.
  Qed.

  Lemma list_cmp_antisym : (forall x y, cmp y x = CompOpp (cmp x y)) ->
    forall a b, list_cmp b a = CompOpp (list_cmp a b).
  Proof.
    intros S a. induction a as [|x a IH]; intros [|y b]; cbn [list_cmp CompOpp]; try reflexivity.
    rewrite (S x y). destruct (cmp x y); cbn [CompOpp]; [apply IH | reflexivity | reflexivity].
  Qed.

  Lemma list_cmp_eq_iff a : forall b, list_cmp a b = Eq <-> Forall2 (fun x y => cmp x y = Eq) a b.
  Proof.
    induction a as [|x a IH]; intros [|y b]; cbn [list_cmp].
    - split; [constructor | reflexivity].
    - split; [discriminate | intros H; inversion H].
    - split; [discriminate | intros H; inversion H].
    - split.
      + destruct (cmp x y) eqn:E; try discriminate.
        intros H. constructor; [exact E | apply IH; exact H].
      + intros H. inversion H as [|? ? ? ? Hxy Hab]; subst.
        rewrite Hxy. apply IH. exact Hab.
  Qed.

  Lemma list_cmp_app p q a b : Forall2 (fun x y => cmp x y = Eq) p q ->
    list_cmp (p ++ a) (q ++ b) = list_cmp a b.
  Proof.
    intros H. induction H as [|x y p q Hxy _ IH]; cbn [app list_cmp]; [reflexivity|].
    rewrite Hxy. exact IH.
  Qed.

  Lemma list_cmp_prefix a b : (forall x, cmp x x = Eq) -> b <> [] -> list_cmp a (a ++ b) = Lt.
  Proof.
    intros R Hb. rewrite <- (app_nil_r a) at 1.
    rewrite list_cmp_app by (apply list_cmp_eq_iff, list_cmp_refl, R).
    destruct b; [contradiction | reflexivity].
  Qed.

  Lemma linear_list : linear cmp -> linear list_cmp.
  Proof.
    intros L. split; [apply list_cmp_antisym, (lin_antisym L)|].
    intros a. induction a as [|x a IH]; intros [|y b] [|z c]; cbn [list_cmp];
      try (repeat split; congruence).
    exact (trans3_then _ _ _ _ _ _ (lin_trans L x y z) (IH b c)).
  Qed.
End ListCmp.

Lemma bytes_cmp_list a b : bytes_cmp a b = list_cmp N.compare a b.
Proof. reflexivity. Qed.

Lemma linear_bytes : linear bytes_cmp.
Proof. exact (linear_list N.compare linear_N). Qed.

Lemma bytes_cmp_refl x : bytes_cmp x x = Eq.
Proof. exact (lin_refl linear_bytes x). Qed.

Lemma bytes_cmp_eq x y : bytes_cmp x y = Eq -> x = y.
Proof.
  rewrite bytes_cmp_list, list_cmp_eq_iff. intros H.
  induction H as [|a b x y Hab _ IH]; [reflexivity|].
  apply N.compare_eq in Hab. subst b y. reflexivity.
Qed.

Lemma bytes_cmp_prefix x z : z <> [] -> bytes_cmp x (x ++ z) = Lt.
Proof. rewrite bytes_cmp_list. apply list_cmp_prefix, N.compare_refl. Qed.

Lemma bytes_cmp_firstn_skipn (n : nat) : forall x y,
  bytes_cmp x y = match bytes_cmp (firstn n x) (firstn n y) with
                  | Eq => bytes_cmp (skipn n x) (skipn n y)
                  | c => c
                  end.
Proof.
  induction n as [|n IH]; intros x y; [reflexivity|].
  destruct x as [|a x], y as [|b y]; cbn [firstn skipn bytes_cmp]; try reflexivity.
  destruct (a ?= b); try reflexivity. apply IH.
Qed.

Definition vctor (v : tval) : N :=
  match v with
  | VNone => 0 | VBool _ => 1 | VI _ _ => 2 | VU _ _ => 3 | VPtr _ => 4
  | VF32 _ => 5 | VF64 _ => 6 | VStr _ => 7 | VBytes _ => 8
  end.
Definition vwidth (v : tval) : width :=
  match v with VI w _ | VU w _ => w | _ => WNat end.

Definition vkinds (v : tval) : list N :=
  match v with
  | VNone => [KMin; KArrayEnd; KObjectEnd; KMapEnd; KTupleEnd; KNil; KNaN;
              KArray; KObject; KMap; KTuple; KMax]
  | VBool _ => [KBool]
  | VI w _ => [ikind w]
  | VU w _ => [ukind w]
  | VPtr _ => [KPointer]
  | VF32 _ => [KFloat32]
  | VF64 _ => [KFloat64]
  | VStr _ => [KString; KTypeName; KLiteral]
  | VBytes _ => [KBytes; KRef]
  end.

Lemma shape_kinds k v : kind_shape k v = true -> In k (vkinds v).
Proof.
  destruct v as [|b|w z|w n|n|n|n|s|s]; cbn [vkinds]; intros H;
    try (left; symmetry; apply N.eqb_eq; exact H).
  - apply existsb_eqb_In. exact H.
  - left. symmetry. exact (shape_VI k w z H).
  - left. symmetry. exact (shape_VU k w n H).
  - apply (str_kind_In k). exact H.
  - apply (bytes_kind_In k). exact H.
Qed.

(* the class (constructor, width) a kind prescribes *)
Definition kcls (k : N) : N * width :=
  if is_valueless_kind k then (0, WNat)
  else if k =? KBool then (1, WNat)
  else if k =? KInt then (2, WNat) else if k =? KInt8 then (2, W8)
  else if k =? KInt16 then (2, W16) else if k =? KInt32 then (2, W32)
  else if k =? KInt64 then (2, W64)
  else if k =? KUint then (3, WNat) else if k =? KUint8 then (3, W8)
  else if k =? KUint16 then (3, W16) else if k =? KUint32 then (3, W32)
  else if k =? KUint64 then (3, W64)
  else if k =? KPointer then (4, WNat)
  else if k =? KFloat32 then (5, WNat)
  else if k =? KFloat64 then (6, WNat)
  else if is_str_kind k then (7, WNat)
  else if is_bytes_kind k then (8, WNat)
  else (9, WNat).

Definition kind_ok (k : N) : bool :=
  (1 <=? k) && (k <=? 255) && negb (k =? KStringEnd) && negb (k =? KStringBegin)
  && negb (k =? KBytesEnd) && negb (k =? KBytesBegin).

Lemma shape_kind k v : kind_shape k v = true -> kcls k = (vctor v, vwidth v) /\ kind_ok k = true.
Proof.
  intros H. apply shape_kinds in H.
  destruct v as [|b|w z|w n|n|n|n|s|s]; cbn [vkinds vctor vwidth] in *;
    try (destruct w); each_kind H.
Qed.

Lemma wf_cmp_token t : wf_cmp t = true -> wf_token t = true.
Proof. unfold wf_cmp. intros H. apply andb_true_iff in H. tauto. Qed.

Lemma wf_cmp_nan t : wf_cmp t = true -> not_nan_payload (val t) = true.
Proof. unfold wf_cmp. intros H. apply andb_true_iff in H. tauto. Qed.

(* Tokens of one kind carry values of one Go type (this is what makes Compare's type
   assertions safe): the nine ways two well-formed tokens can share a kind. *)
Inductive same_kind : token -> token -> Prop :=
| SKnone k : is_valueless_kind k = true -> same_kind (T k VNone) (T k VNone)
| SKbool a b : same_kind (T KBool (VBool a)) (T KBool (VBool b))
| SKint w x y : same_kind (T (ikind w) (VI w x)) (T (ikind w) (VI w y))
| SKuint w x y : same_kind (T (ukind w) (VU w x)) (T (ukind w) (VU w y))
| SKptr x y : same_kind (T KPointer (VPtr x)) (T KPointer (VPtr y))
| SKf32 x y : same_kind (T KFloat32 (VF32 x)) (T KFloat32 (VF32 y))
| SKf64 x y : same_kind (T KFloat64 (VF64 x)) (T KFloat64 (VF64 y))
| SKstr k x y : is_str_kind k = true -> same_kind (T k (VStr x)) (T k (VStr y))
| SKbytes k x y : is_bytes_kind k = true -> same_kind (T k (VBytes x)) (T k (VBytes y)).

Lemma wf_same_kind s t : wf_token s = true -> wf_token t = true -> kind s = kind t -> same_kind s t.
Proof.
  intros Hs Ht Hk. apply wf_token_shape in Hs, Ht.
  pose proof (proj1 (shape_kind _ _ Ht)) as C. rewrite <- Hk, (proj1 (shape_kind _ _ Hs)) in C.
  injection C as Hc Hw.
  destruct s as [k v1], t as [k' v2]. cbn [kind val] in *. subst k'. clear Ht.
  destruct v1 as [|a|w x|w x|x|x|x|x|x], v2 as [|b|w' y|w' y|y|y|y|y|y];
    try discriminate Hc; cbn [vwidth] in Hw;
    try (apply N.eqb_eq in Hs; subst k; constructor).
  - exact (SKnone k Hs).
  - subst w'. apply shape_VI in Hs. subst k. constructor.
  - subst w'. apply shape_VU in Hs. subst k. constructor.
  - exact (SKstr k x y Hs).
  - exact (SKbytes k x y Hs).
Qed.

(* Go decides with == first and < second (cmp_val), or with < and > (cb_cmp_fixed) *)
Lemma eq_lt_cmp c :
  (if match c with Eq => true | _ => false end then Some Eq
   else lt_gt match c with Lt => true | _ => false end) = Some c.
Proof. destruct c; reflexivity. Qed.

Lemma eq_lt_Z x y : (if (x =? y)%Z then Some Eq else lt_gt (x <? y)%Z) = Some (x ?= y)%Z.
Proof. rewrite Z.eqb_compare. apply eq_lt_cmp. Qed.

Lemma eq_lt_N x y : (if x =? y then Some Eq else lt_gt (x <? y)) = Some (x ?= y).
Proof. rewrite N.eqb_compare. apply eq_lt_cmp. Qed.

Lemma cmp_val_ord s t : same_kind s t ->
  not_nan_payload (val s) = true -> not_nan_payload (val t) = true ->
  cmp_val (val s) (val t) = Some (val_ord (val s) (val t)).
Proof.
  intros [k Hk|a b|w x y|w x y|x y|x y|x y|k x y Hk|k x y Hk] Ns Nt;
    cbn [val cmp_val iface_eq val_ord not_nan_payload] in *.
  - reflexivity.
  - destruct a, b; reflexivity.
  - rewrite width_eqb_refl. apply eq_lt_Z.
  - rewrite width_eqb_refl. apply eq_lt_N.
  - apply eq_lt_N.
  - unfold f32_eq, f32_lt. rewrite Ns, Nt. apply eq_lt_Z.
  - unfold f64_eq, f64_lt. rewrite Ns, Nt. apply eq_lt_Z.
  - rewrite bytes_eqb_cmp. apply eq_lt_cmp.
  - reflexivity.
Qed.

Lemma cmp_tokens_step x y a b :
  cmp_tokens (x :: a) (y :: b) =
  match kind x ?= kind y with
  | Eq => match cmp_val (val x) (val y) with Some Eq => cmp_tokens a b | r => r end
  | c => Some c
  end.
Proof.
  cbn [cmp_tokens]. unfold N.ltb. rewrite (N.compare_antisym (kind x) (kind y)).
  destruct (kind x ?= kind y); reflexivity.
Qed.

Lemma cmp_tokens_cons x y a b : wf_cmp x = true -> wf_cmp y = true ->
  cmp_tokens (x :: a) (y :: b) = match tok_ord x y with Eq => cmp_tokens a b | c => Some c end.
Proof.
  intros Hx Hy. rewrite cmp_tokens_step. unfold tok_ord.
  destruct (kind x ?= kind y) eqn:E; try reflexivity. apply N.compare_eq in E.
  rewrite (cmp_val_ord x y (wf_same_kind x y (wf_cmp_token x Hx) (wf_cmp_token y Hy) E)
             (wf_cmp_nan x Hx) (wf_cmp_nan y Hy)).
  destruct (val_ord (val x) (val y)); reflexivity.
Qed.

Definition wf_cmps (ts : list token) : Prop := Forall (fun t => wf_cmp t = true) ts.

Theorem cmp_is_lex a b :
  Forall (fun t => wf_cmp t = true) a -> Forall (fun t => wf_cmp t = true) b ->
  cmp_tokens a b = Some (lex a b).
Proof.
  intros Ha. revert b. induction Ha as [|x a Hx Ha IH]; intros b Hb.
  - destruct b; reflexivity.
  - destruct Hb as [|y b Hy Hb]; [reflexivity|].
    rewrite (cmp_tokens_cons x y a b Hx Hy). cbn [lex].
    destruct (tok_ord x y); try reflexivity. apply IH. exact Hb.
Qed.

Example cmp_is_lex_ex :
  let a := [T KArray VNone; T KInt8 (VI W8 (-3)); T KString (VStr [104; 105])] in
  let b := [T KArray VNone; T KInt8 (VI W8 (-3)); T KString (VStr [104; 105; 33])] in
  wf_cmps a /\ wf_cmps b /\ cmp_tokens a b = Some Lt.
Proof. repeat split; repeat constructor. Qed.

Lemma lex_list a b : lex a b = list_cmp tok_ord a b.
Proof. reflexivity. Qed.

(* A comparison key.  val_ord compares values of one constructor by a number and a byte
   string, and calls values of different constructors equal (so it is not transitive
   off the domain). *)
Definition vkey (v : tval) : Z * bytes :=
  match v with
  | VNone => (0, [])
  | VBool b => (if b then 1 else 0, [])
  | VI _ z => (z, [])
  | VU _ n | VPtr n => (Z.of_N n, [])
  | VF32 b => (f32_key b, [])
  | VF64 b => (f64_key b, [])
  | VStr s | VBytes s => (0, s)
  end%Z.
Definition vkey_cmp : Z * bytes -> Z * bytes -> comparison := pair_cmp Z.compare bytes_cmp.

Lemma linear_vkey : linear vkey_cmp.
Proof. exact (linear_pair _ _ linear_Z linear_bytes). Qed.

Lemma val_ord_key v1 v2 :
  val_ord v1 v2 = if vctor v1 =? vctor v2 then vkey_cmp (vkey v1) (vkey v2) else Eq.
Proof.
  destruct v1 as [|b1|w1 z1|w1 n1|n1|n1|n1|s1|s1], v2 as [|b2|w2 z2|w2 n2|n2|n2|n2|s2|s2];
    try reflexivity; unfold vkey_cmp, pair_cmp; cbn [val_ord vctor N.eqb Pos.eqb vkey fst snd bytes_cmp].
  - destruct b1, b2; reflexivity.
  - destruct (z1 ?= z2)%Z; reflexivity.
  - rewrite N2Z.inj_compare. destruct (n1 ?= n2); reflexivity.
  - rewrite N2Z.inj_compare. destruct (n1 ?= n2); reflexivity.
  - destruct (f32_key n1 ?= f32_key n2)%Z; reflexivity.
  - destruct (f64_key n1 ?= f64_key n2)%Z; reflexivity.
Qed.

Lemma tok_ord_refl t : tok_ord t t = Eq.
Proof.
  unfold tok_ord. rewrite N.compare_refl, val_ord_key, N.eqb_refl. apply (lin_refl linear_vkey).
Qed.

Theorem lex_refl a : lex a a = Eq.
Proof. rewrite lex_list. apply list_cmp_refl, tok_ord_refl. Qed.

Lemma tok_ord_antisym s t : tok_ord t s = CompOpp (tok_ord s t).
Proof.
  unfold tok_ord. rewrite (N.compare_antisym (kind s) (kind t)).
  destruct (kind s ?= kind t); cbn [CompOpp]; try reflexivity.
  rewrite !val_ord_key, (N.eqb_sym (vctor (val t))).
  destruct (vctor (val s) =? vctor (val t)); [apply (lin_antisym linear_vkey) | reflexivity].
Qed.

Theorem lex_antisym a b : lex b a = CompOpp (lex a b).
Proof. rewrite !lex_list. apply list_cmp_antisym, tok_ord_antisym. Qed.

(* on well-formed tokens tok_ord is the lexicographic order on (kind, number, bytes) *)
Definition tkey (t : token) : N * (Z * bytes) := (kind t, vkey (val t)).
Definition tkey_cmp : N * (Z * bytes) -> N * (Z * bytes) -> comparison := pair_cmp N.compare vkey_cmp.

Lemma linear_tkeys : linear (list_cmp tkey_cmp).
Proof. exact (linear_list _ (linear_pair _ _ linear_N linear_vkey)). Qed.

Lemma tok_ord_key s t : wf_token s = true -> wf_token t = true ->
  tok_ord s t = tkey_cmp (tkey s) (tkey t).
Proof.
  intros Hs Ht. unfold tok_ord, tkey_cmp, pair_cmp, tkey. cbn [fst snd].
  destruct (kind s ?= kind t) eqn:E; try reflexivity. apply N.compare_eq in E.
  rewrite val_ord_key. destruct (wf_same_kind s t Hs Ht E); reflexivity.
Qed.

Lemma lex_key a b : wf_cmps a -> wf_cmps b ->
  lex a b = list_cmp tkey_cmp (map tkey a) (map tkey b).
Proof.
  intros Ha. revert b. induction Ha as [|x a Hx _ IH]; intros _ [|y b Hy Hb];
    cbn [lex map list_cmp]; try reflexivity.
  rewrite (tok_ord_key x y (wf_cmp_token x Hx) (wf_cmp_token y Hy)), (IH b Hb). reflexivity.
Qed.

Lemma lex_lt_trans a : forall b c, wf_cmps a -> wf_cmps b -> wf_cmps c ->
  lex a b = Lt -> lex b c = Lt -> lex a c = Lt.
Proof. intros b c Ha Hb Hc. rewrite !lex_key by assumption. apply (lin_lt_trans linear_tkeys). Qed.

Theorem lex_trans_lt a b c :
  Forall (fun t => wf_cmp t = true) a -> Forall (fun t => wf_cmp t = true) b ->
  Forall (fun t => wf_cmp t = true) c ->
  lex a b = Lt -> lex b c <> Gt -> lex a c = Lt.
Proof. intros Ha Hb Hc. rewrite !lex_key by assumption. apply (lin_lt_le linear_tkeys). Qed.

Theorem lex_trans_lt' a b c :
  Forall (fun t => wf_cmp t = true) a -> Forall (fun t => wf_cmp t = true) b ->
  Forall (fun t => wf_cmp t = true) c ->
  lex a b <> Gt -> lex b c = Lt -> lex a c = Lt.
Proof. intros Ha Hb Hc. rewrite !lex_key by assumption. apply (lin_le_lt linear_tkeys). Qed.

Theorem lex_trans a b c :
  Forall (fun t => wf_cmp t = true) a -> Forall (fun t => wf_cmp t = true) b ->
  Forall (fun t => wf_cmp t = true) c ->
  lex a b <> Gt -> lex b c <> Gt -> lex a c <> Gt.
Proof. intros Ha Hb Hc. rewrite !lex_key by assumption. apply (lin_le_trans linear_tkeys). Qed.

Example lex_trans_ex :
  let a := [T KBool (VBool false)] in
  let b := [T KBool (VBool true)] in
  let c := [T KBool (VBool true); T KNil VNone] in
  wf_cmps a /\ wf_cmps b /\ wf_cmps c /\ lex a b = Lt /\ lex b c = Lt /\ lex a c = Lt.
Proof. repeat split; repeat constructor. Qed.

(* without the domain restriction the relation is not transitive: values of the
   wrong dynamic type all compare Eq with one another *)
Example lex_trans_needs_wf :
  let a := [T KBool (VBool true)] in
  let b := [T KBool VNone] in
  let c := [T KBool (VBool false)] in
  lex a b = Eq /\ lex b c = Eq /\ lex a c = Gt.
Proof. repeat split. Qed.

Theorem lex_eq_iff a b : lex a b = Eq <-> Forall2 tok_same a b.
Proof. exact (list_cmp_eq_iff tok_ord a b). Qed.

(* the float keys are sign-magnitude numbers: injective except that both zeros have key 0 *)
Definition sm_key (h b : N) : Z := if b <? h then Z.of_N b else (- Z.of_N (b - h))%Z.

Lemma sm_key_inj h x y : sm_key h x = sm_key h y ->
  x = y \/ (sm_key h x = 0%Z /\ sm_key h y = 0%Z).
Proof.
  unfold sm_key. destruct (N.ltb_spec x h) as [Hx|Hx], (N.ltb_spec y h) as [Hy|Hy]; intros H.
  - left. apply N2Z.inj. exact H.
  - right. lia.
  - right. lia.
  - left. apply Z.opp_inj, N2Z.inj in H.
    rewrite <- (N.sub_add h x Hx), <- (N.sub_add h y Hy), H. reflexivity.
Qed.

Lemma f32_key_inj x y : f32_key x = f32_key y -> x = y \/ (f32_key x = 0%Z /\ f32_key y = 0%Z).
Proof. exact (sm_key_inj (2 ^ 31) x y). Qed.

Lemma f64_key_inj x y : f64_key x = f64_key y -> x = y \/ (f64_key x = 0%Z /\ f64_key y = 0%Z).
Proof. exact (sm_key_inj (2 ^ 63) x y). Qed.

(* Eq exactly for identical tokens, up to +0 / -0 *)
Theorem tok_same_wf s t : wf_cmp s = true -> wf_cmp t = true -> tok_same s t ->
  s = t \/
  (exists x y, kind s = kind t /\
     ((val s = VF32 x /\ val t = VF32 y /\ f32_key x = 0%Z /\ f32_key y = 0%Z) \/
      (val s = VF64 x /\ val t = VF64 y /\ f64_key x = 0%Z /\ f64_key y = 0%Z))).
Proof.
  intros Hs Ht. apply wf_cmp_token in Hs, Ht. unfold tok_same, tok_ord.
  destruct (kind s ?= kind t) eqn:Hk; try discriminate. apply N.compare_eq in Hk.
  destruct (wf_same_kind s t Hs Ht Hk) as [k _|a b|w x y|w x y|x y|x y|x y|k x y _|k x y _];
    cbn [kind val val_ord]; intros H.
  - left. reflexivity.
  - left. destruct a, b; try discriminate H; reflexivity.
  - left. apply Z.compare_eq in H. subst y. reflexivity.
  - left. apply N.compare_eq in H. subst y. reflexivity.
  - left. apply N.compare_eq in H. subst y. reflexivity.
  - apply Z.compare_eq, f32_key_inj in H. destruct H as [<-|[Hx Hy]]; [left; reflexivity|].
    right. exists x, y. split; [reflexivity|]. left. repeat split; assumption.
  - apply Z.compare_eq, f64_key_inj in H. destruct H as [<-|[Hx Hy]]; [left; reflexivity|].
    right. exists x, y. split; [reflexivity|]. right. repeat split; assumption.
  - left. apply bytes_cmp_eq in H. subst y. reflexivity.
  - left. apply bytes_cmp_eq in H. subst y. reflexivity.
Qed.

(* the second alternative occurs *)
Example tok_same_zero :
  let s := T KFloat64 (VF64 0) in let t := T KFloat64 (VF64 9223372036854775808) in
  wf_cmp s = true /\ wf_cmp t = true /\ tok_same s t /\ s <> t.
Proof. repeat split. discriminate. Qed.

Theorem lex_prefix a b : b <> [] -> lex a (a ++ b) = Lt.
Proof. rewrite lex_list. apply list_cmp_prefix, tok_ord_refl. Qed.

Theorem min_max t : wf_cmp t = true -> kind t <> KMin -> kind t <> KMax ->
  lex [T KMin VNone] [t] = Lt /\ lex [t] [T KMax VNone] = Lt.
Proof.
  intros Ht Hmin Hmax. apply wf_cmp_token, wf_token_shape, shape_kind, proj2 in Ht.
  cbn [lex]. unfold tok_ord. cbn [kind val].
  assert (H1 : (KMin ?= kind t) = Lt) by (apply N.compare_lt_iff; unfold kind_ok, KMin in *; lia).
  assert (H2 : (kind t ?= KMax) = Lt) by (apply N.compare_lt_iff; unfold kind_ok, KMax in *; lia).
  rewrite H1, H2. split; reflexivity.
Qed.

Example min_max_ex : let t := T KString (VStr []) in
  wf_cmp t = true /\ kind t <> KMin /\ kind t <> KMax.
Proof. repeat split; discriminate. Qed.

(* a NaN bit pattern carried as a float payload (outside the domain: the canonical
   NaN is the NaN kind) compares greater than itself *)
Theorem nan_payload_irreflexive : exists t, wf_token t = true /\ cmp_tokens [t] [t] = Some Gt.
Proof. exists (T KFloat64 (VF64 9221120237041090560)). vm_compute. split; reflexivity. Qed.

Definition wf_route (t : token) : Prop :=
  wf_cmp t = true /\ match val t with VStr s | VBytes s => lenN s < 2 ^ 56 | _ => True end.

Lemma cb_len_prefix l r : l < 2 ^ 56 -> cb_len (len_prefix l ++ r) = inl (l, r).
Proof.
  intros Hl. unfold len_prefix, cb_len. destruct (l <? 128) eqn:E; cbn [app].
  - rewrite E. reflexivity.
  - pose proof (put_uvarint_len l Hl) as Hlen. cbv zeta.
    assert (H : (compl8 (lenN (put_uvarint l)) <? 128) = false /\
                compl8 (compl8 (lenN (put_uvarint l))) = lenN (put_uvarint l) /\
                (8 <? lenN (put_uvarint l)) = false)
      by (clear -Hlen; unfold compl8, lenN; lia).
    destruct H as (E1 & Hc & E2).
    rewrite E1, Hc, E2, takeN_app. unfold uvarint_val. rewrite (read_put_uvarint l Hl).
    assert (E3 : (l =? 0) = false) by (clear -E; lia). rewrite E3. reflexivity.
Qed.

Lemma cb_field_prefix s r : lenN s < 2 ^ 56 -> cb_field (len_prefix (lenN s) ++ s ++ r) = inl (s, r).
Proof.
  intros Hl. unfold cb_field. rewrite (cb_len_prefix _ _ Hl). rewrite takeN_app. reflexivity.
Qed.

Lemma cb_fixed_ikind w : cb_fixed (ikind w) = Some (N.of_nat (wbytes w), CbSigned).
Proof. destruct w; reflexivity. Qed.

Lemma cb_fixed_ukind w : cb_fixed (ukind w) = Some (N.of_nat (wbytes w), CbUnsigned).
Proof. destruct w; reflexivity. Qed.

Lemma valueless_cb k : is_valueless_kind k = true -> cb_fixed k = None /\ cb_is_field_kind k = false.
Proof.
  intros H. apply existsb_eqb_In in H. each_kind H.
Qed.

Lemma var_kind_cb strk k : var_kind strk k -> cb_fixed k = None /\ cb_is_field_kind k = true.
Proof.
  destruct strk; intros H; [apply str_kind_In in H | apply bytes_kind_In in H]; each_kind H.
Qed.

Lemma ord_of_Z x y : ord_of (x <? y)%Z (y <? x)%Z = (x ?= y)%Z.
Proof.
  unfold ord_of, Z.ltb. rewrite (Z.compare_antisym x y). destruct (x ?= y)%Z; reflexivity.
Qed.

Lemma ord_of_N x y : ord_of (x <? y) (y <? x) = (x ?= y).
Proof.
  unfold ord_of, N.ltb. rewrite (N.compare_antisym x y). destruct (x ?= y); reflexivity.
Qed.

Lemma f32_ord x y : f32_is_nan x = false -> f32_is_nan y = false ->
  ord_of (f32_lt x y) (f32_lt y x) = (f32_key x ?= f32_key y)%Z.
Proof. intros Hx Hy. unfold f32_lt. rewrite Hx, Hy. apply ord_of_Z. Qed.

Lemma f64_ord x y : f64_is_nan x = false -> f64_is_nan y = false ->
  ord_of (f64_lt x y) (f64_lt y x) = (f64_key x ?= f64_key y)%Z.
Proof. intros Hx Hy. unfold f64_lt. rewrite Hx, Hy. apply ord_of_Z. Qed.

Lemma cmp_bytes_f_kind f ka kb a1 b1 :
  cmp_bytes_f (S f) (ka :: a1) (kb :: b1) =
  match ka ?= kb with Eq => cmp_bytes_f (S f) (ka :: a1) (ka :: b1) | c => CB c end.
Proof.
  destruct (ka ?= kb) eqn:E.
  - apply N.compare_eq in E. subst kb. reflexivity.
  - cbn [cmp_bytes_f]. unfold N.ltb. rewrite E. reflexivity.
  - cbn [cmp_bytes_f]. unfold N.ltb. rewrite (N.compare_antisym ka kb), E. reflexivity.
Qed.

Lemma cmp_bytes_f_fixed f k w c ia ib ra rb :
  cb_fixed k = Some (w, c) -> lenN ia = w -> lenN ib = w ->
  cmp_bytes_f (S f) (k :: ia ++ ra) (k :: ib ++ rb) =
  match cb_cmp_fixed c w (le_val ia) (le_val ib) with Eq => cmp_bytes_f f ra rb | r => CB r end.
Proof.
  intros Hk Ha Hb. cbn [cmp_bytes_f].
  rewrite N.ltb_irrefl, Hk, (takeN_app' w ia ra Ha), (takeN_app' w ib rb Hb). reflexivity.
Qed.

Lemma cmp_bytes_f_field f k s1 s2 ra rb :
  cb_fixed k = None /\ cb_is_field_kind k = true -> lenN s1 < 2 ^ 56 -> lenN s2 < 2 ^ 56 ->
  cmp_bytes_f (S f) (k :: (len_prefix (lenN s1) ++ s1) ++ ra) (k :: (len_prefix (lenN s2) ++ s2) ++ rb) =
  match bytes_cmp s1 s2 with Eq => cmp_bytes_f f ra rb | r => CB r end.
Proof.
  intros [Hk Hf] H1 H2. cbn [cmp_bytes_f].
  rewrite N.ltb_irrefl, Hk, Hf, <- !app_assoc, (cb_field_prefix s1 ra H1), (cb_field_prefix s2 rb H2).
  reflexivity.
Qed.

Lemma cmp_bytes_f_valueless f k ra rb : is_valueless_kind k = true ->
  cmp_bytes_f (S f) (k :: ra) (k :: rb) = cmp_bytes_f f ra rb.
Proof.
  intros Hk. destruct (valueless_cb k Hk) as [E1 E2]. cbn [cmp_bytes_f].
  rewrite N.ltb_irrefl, E1, E2, Hk. reflexivity.
Qed.

Lemma cb_token f x y ra rb : wf_route x -> wf_route y ->
  cmp_bytes_f (S f) (encode_token x ++ ra) (encode_token y ++ rb) =
  match tok_ord x y with Eq => cmp_bytes_f f ra rb | c => CB c end.
Proof.
  intros [Hx Lx] [Hy Ly]. unfold encode_token, tok_ord. cbn [app]. rewrite cmp_bytes_f_kind.
  destruct (kind x ?= kind y) eqn:E; try reflexivity. apply N.compare_eq in E.
  pose proof (wf_cmp_nan x Hx) as Nx. pose proof (wf_cmp_nan y Hy) as Ny.
  apply wf_cmp_token in Hx, Hy.
  pose proof (wf_token_val x Hx) as Vx. pose proof (wf_token_val y Hy) as Vy.
  destruct (wf_same_kind x y Hx Hy E) as [k Hk|a b|w z1 z2|w n1 n2|n1 n2|n1 n2|n1 n2|k s1 s2 Hk|k s1 s2 Hk];
    clear E Hx Hy; cbn [kind val val_ord wf_val enc_val not_nan_payload] in *.
  - apply cmp_bytes_f_valueless. exact Hk.
  - rewrite (cmp_bytes_f_fixed f KBool 1 CbBool) by reflexivity. destruct a, b; reflexivity.
  - rewrite (cmp_bytes_f_fixed f _ _ _ _ _ ra rb (cb_fixed_ikind w) (le_bytes_lenN _ _) (le_bytes_lenN _ _)).
    unfold cb_cmp_fixed. rewrite Nat2N.id, (int_roundtrip w z1 Vx), (int_roundtrip w z2 Vy), ord_of_Z.
    reflexivity.
  - rewrite (cmp_bytes_f_fixed f _ _ _ _ _ ra rb (cb_fixed_ukind w) (le_bytes_lenN _ _) (le_bytes_lenN _ _)).
    apply N.ltb_lt in Vx, Vy. unfold cb_cmp_fixed.
    rewrite (uint_roundtrip _ n1 Vx), (uint_roundtrip _ n2 Vy), ord_of_N. reflexivity.
  - rewrite (cmp_bytes_f_fixed f KPointer 8 CbUnsigned) by (reflexivity || apply (le_bytes_lenN 8)).
    apply N.ltb_lt in Vx, Vy. unfold cb_cmp_fixed.
    rewrite (uint_roundtrip 8 n1 Vx), (uint_roundtrip 8 n2 Vy), ord_of_N. reflexivity.
  - rewrite (cmp_bytes_f_fixed f KFloat32 4 CbF32) by (reflexivity || apply (le_bytes_lenN 4)).
    apply N.ltb_lt in Vx, Vy. apply negb_true_iff in Nx, Ny. unfold cb_cmp_fixed.
    rewrite (uint_roundtrip 4 n1 Vx), (uint_roundtrip 4 n2 Vy), (f32_ord n1 n2 Nx Ny). reflexivity.
  - rewrite (cmp_bytes_f_fixed f KFloat64 8 CbF64) by (reflexivity || apply (le_bytes_lenN 8)).
    apply N.ltb_lt in Vx, Vy. apply negb_true_iff in Nx, Ny. unfold cb_cmp_fixed.
    rewrite (uint_roundtrip 8 n1 Vx), (uint_roundtrip 8 n2 Vy), (f64_ord n1 n2 Nx Ny). reflexivity.
  - apply (cmp_bytes_f_field f k s1 s2 ra rb (var_kind_cb true k Hk) Lx Ly).
  - apply (cmp_bytes_f_field f k s1 s2 ra rb (var_kind_cb false k Hk) Lx Ly).
Qed.

Lemma encode_length_ge ts : (length ts <= length (encode ts))%nat.
Proof.
  induction ts as [|t ts IH]; [cbn; lia|].
  rewrite encode_cons, app_length. pose proof (encode_token_length t). cbn [length]. lia.
Qed.

Lemma bytes_route_f a : forall b f, Forall wf_route a -> Forall wf_route b ->
  (length a < f)%nat -> cmp_bytes_f f (encode a) (encode b) = CB (lex a b).
Proof.
  induction a as [|x a IH]; intros b f Ha Hb Hf; (destruct f as [|f]; [inversion Hf|]).
  - destruct b as [|y b]; reflexivity.
  - destruct b as [|y b]; [reflexivity|].
    inversion Ha as [|? ? Hx Ha']; subst. inversion Hb as [|? ? Hy Hb']; subst.
    rewrite !encode_cons. rewrite (cb_token f x y _ _ Hx Hy). cbn [lex].
    destruct (tok_ord x y); try reflexivity.
    apply IH; try assumption. apply Nat.succ_lt_mono. exact Hf.
Qed.

Theorem bytes_route a b : Forall wf_route a -> Forall wf_route b ->
  cmp_bytes (encode a) (encode b) = CB (lex a b).
Proof.
  intros Ha Hb. unfold cmp_bytes. apply bytes_route_f; try assumption.
  pose proof (encode_length_ge a). lia.
Qed.

Example bytes_route_ex :
  let a := [T KString (VStr [104; 105]); T KFloat64 (VF64 9223372036854775808); T KInt16 (VI W16 (-2))] in
  let b := [T KString (VStr [104; 105]); T KFloat64 (VF64 0); T KInt16 (VI W16 1)] in
  Forall wf_route a /\ Forall wf_route b /\ cmp_bytes (encode a) (encode b) = CB Lt.
Proof.
  split; [|split]; [| | vm_compute; reflexivity];
    repeat (constructor; [vm_compute; auto|]); constructor.
Qed.

(* the cut points of the comparison-oriented decoder: pieces of step, 2*step, 4*step ... bytes *)
Fixpoint chunks (fuel : nat) (step : N) (p : bytes) : list bytes :=
  match fuel with
  | O => []
  | S f => match p with
           | [] => []
           | _ :: _ => firstn_N step p :: chunks f (2 * step) (skipn_N step p)
           end
  end.

Definition mkseg (k : N) (strk : bool) (seg : bytes) : token :=
  T k (if strk then VStr seg else VBytes seg).

Definition seg_kind (strk : bool) : N := if strk then KString else KBytes.
Definition seg_begin (strk : bool) : N := if strk then KStringBegin else KBytesBegin.
Definition seg_end (strk : bool) : N := if strk then KStringEnd else KBytesEnd.

Definition seg_of (strk : bool) (p : bytes) : list token :=
  T (seg_begin strk) VNone
  :: map (mkseg (seg_kind strk) strk) (chunks (S (length p)) init_step p)
  ++ [T (seg_end strk) VNone].

Definition seg_tok (t : token) : list token :=
  match val t with
  | VStr p => if kind t =? KString then seg_of true p else [t]
  | VBytes p => if kind t =? KBytes then seg_of false p else [t]
  | _ => [t]
  end.
Definition segmentize (ts : list token) : list token := flat_map seg_tok ts.

(* the read of the next piece (decode.go: io.CopyBuffer from io.LimitReader(r, l)) when the payload is there in full *)
Lemma takeN_min step (p r : bytes) :
  takeN (N.min step (lenN p)) (p ++ r) = Some (firstn_N step p, skipn_N step p ++ r).
Proof.
  rewrite <- (takeN_app' _ _ (skipn_N step p ++ r) (lenN_firstn_N step p)), app_assoc.
  unfold firstn_N, skipn_N. rewrite firstn_skipn. reflexivity.
Qed.

(* a non-empty piece is cut off a non-empty payload: the fuel of [chunks] and [segments] suffices *)
Lemma length_skipn_N step b (p : bytes) : 0 < step ->
  (length (skipn_N step (b :: p)) <= length p)%nat.
Proof. intros Hs. unfold skipn_N. rewrite skipn_length. cbn [length]. lia. Qed.

(* the decoder's segment loop, when the payload is fully available, cuts exactly at [chunks]
   (CodecP.segments_spec only says that the pieces concatenate to the payload) *)
Lemma segments_chunks k strk fault : forall f1 f2 step p rest off, 0 < step ->
  (length p < f1)%nat -> (length p < f2)%nat ->
  segments f1 k strk fault step (lenN p) (p ++ rest) off =
  (map (mkseg k strk) (chunks f2 step p), inl (rest, off + lenN p)).
Proof.
  induction f1 as [|f1 IH]; intros f2 step p rest off Hs H1 H2; [inversion H1|].
  destruct f2 as [|f2]; [inversion H2|]. cbn [segments chunks]. destruct p as [|b p].
  - cbn [app map]. change (lenN []) with 0. rewrite N.add_0_r. reflexivity.
  - pose proof (length_skipn_N step b p Hs) as Hlt. cbn [length] in H1, H2.
    change (lenN (b :: p) =? 0) with false. cbv iota.
    rewrite takeN_min, <- lenN_skipn_N.
    rewrite (IH f2 (2 * step) (skipn_N step (b :: p)) rest) by lia.
    rewrite <- N.add_assoc, lenN_min_skipn. reflexivity.
Qed.

Lemma cmp_val_seg (strk : bool) a b :
  cmp_val (if strk then VStr a else VBytes a) (if strk then VStr b else VBytes b)
  = Some (bytes_cmp a b).
Proof.
  destruct strk; cbn [cmp_val iface_eq]; [|reflexivity].
  rewrite bytes_eqb_cmp. apply eq_lt_cmp.
Qed.

Lemma cmp_tokens_mkseg k strk p q a b :
  cmp_tokens (mkseg k strk p :: a) (mkseg k strk q :: b) =
  match bytes_cmp p q with Eq => cmp_tokens a b | c => Some c end.
Proof.
  rewrite cmp_tokens_step. unfold mkseg. cbn [kind val]. rewrite N.compare_refl, cmp_val_seg.
  destruct (bytes_cmp p q); reflexivity.
Qed.

(* comparing two payloads piece by piece, a missing piece being the End marker *)
Lemma chunks_cmp k ek strk : ek < k -> forall fx fy step x y ra rb, 0 < step ->
  (length x < fx)%nat -> (length y < fy)%nat ->
  cmp_tokens (map (mkseg k strk) (chunks fx step x) ++ T ek VNone :: ra)
             (map (mkseg k strk) (chunks fy step y) ++ T ek VNone :: rb)
  = match bytes_cmp x y with Eq => cmp_tokens ra rb | c => Some c end.
Proof.
  intros Hek. apply N.compare_lt_iff in Hek.
  induction fx as [|fx IH]; intros fy step x y ra rb Hs Hx Hy; [inversion Hx|].
  destruct fy as [|fy]; [inversion Hy|]. cbn [chunks].
  destruct x as [|a x], y as [|b y]; cbn [map app].
  - rewrite cmp_tokens_step. cbn [kind val]. rewrite N.compare_refl. reflexivity.
  - rewrite cmp_tokens_step. cbn [kind mkseg]. rewrite Hek. reflexivity.
  - rewrite cmp_tokens_step. cbn [kind mkseg]. rewrite N.compare_antisym, Hek. reflexivity.
  - pose proof (length_skipn_N step a x Hs). pose proof (length_skipn_N step b y Hs).
    cbn [length] in Hx, Hy.
    rewrite cmp_tokens_mkseg, (bytes_cmp_firstn_skipn (N.to_nat step) (a :: x) (b :: y)).
    fold (firstn_N step (a :: x)) (firstn_N step (b :: y)) (skipn_N step (a :: x)) (skipn_N step (b :: y)).
    destruct (bytes_cmp (firstn_N step (a :: x)) (firstn_N step (b :: y))); try reflexivity.
    apply IH; lia.
Qed.

Lemma seg_end_lt strk : seg_end strk < seg_kind strk.
Proof. destruct strk; reflexivity. Qed.

Lemma seg_of_cmp strk x y ra rb :
  cmp_tokens (seg_of strk x ++ ra) (seg_of strk y ++ rb)
  = match bytes_cmp x y with Eq => cmp_tokens ra rb | c => Some c end.
Proof.
  unfold seg_of. cbn [app]. rewrite <- !app_assoc, cmp_tokens_step. cbn [app kind val].
  rewrite N.compare_refl. cbn [cmp_val iface_eq].
  apply (chunks_cmp _ _ strk (seg_end_lt strk)); [reflexivity | lia | lia].
Qed.

(* C07: "long strings and blobs that are split into segments compare exactly like the
   unsplit values, including when one is a prefix of the other": whatever follows,
   Begin / 8 / 16 / 32 / ... / End against Begin / 8 / 16 / ... / End gives the
   result of comparing the two whole String (or Bytes) tokens. *)
Theorem segments_like_unsplit strk x y ra rb :
  cmp_tokens (seg_of strk x ++ ra) (seg_of strk y ++ rb)
  = cmp_tokens (mkseg (seg_kind strk) strk x :: ra) (mkseg (seg_kind strk) strk y :: rb).
Proof. rewrite seg_of_cmp, cmp_tokens_mkseg. reflexivity. Qed.

Corollary segments_prefix strk x z ra rb : z <> [] ->
  cmp_tokens (seg_of strk x ++ ra) (seg_of strk (x ++ z) ++ rb) = Some Lt.
Proof. intros Hz. rewrite seg_of_cmp, (bytes_cmp_prefix x z Hz). reflexivity. Qed.

Example segments_like_unsplit_ex :
  let x := expand [(24, 7)] in let y := expand [(24, 7); (5, 1)] in
  length (seg_of true x) = 4%nat /\ length (seg_of true y) = 5%nat /\
  cmp_tokens (seg_of true x) (seg_of true y) = Some Lt /\
  cmp_tokens [T KString (VStr x)] [T KString (VStr y)] = Some Lt.
Proof. vm_compute. repeat split. Qed.

Lemma seg_class t : wf_token t = true ->
  (exists strk p, t = mkseg (seg_kind strk) strk p /\ seg_tok t = seg_of strk p) \/
  ((forall strk, kind t <> seg_kind strk) /\ seg_tok t = [t]).
Proof.
  intros Hwf. apply wf_token_shape, shape_kind, proj1 in Hwf.
  destruct t as [k v]. unfold seg_tok. cbn [kind val] in *.
  destruct (N.eqb_spec k KString) as [->|NS]; [|destruct (N.eqb_spec k KBytes) as [->|NB]].
  - left. exists true. change (kcls KString) with (7, WNat) in Hwf.
    destruct v as [|b|w z|w n|n|n|n|s|s]; try discriminate Hwf. exists s. split; reflexivity.
  - left. exists false. change (kcls KBytes) with (8, WNat) in Hwf.
    destruct v as [|b|w z|w n|n|n|n|s|s]; try discriminate Hwf. exists s. split; reflexivity.
  - right. split; [intros [|]; assumption|]. destruct v; reflexivity.
Qed.

Lemma seg_tok_cons t : exists h tl, seg_tok t = h :: tl.
Proof.
  unfold seg_tok, seg_of. destruct (val t); try (eexists; eexists; reflexivity).
  - destruct (kind t =? KString); eexists; eexists; reflexivity.
  - destruct (kind t =? KBytes); eexists; eexists; reflexivity.
Qed.

(* Begin is the successor of its segment kind, so it sorts against every other kind
   like that kind *)
Lemma compare_succ_other n k : k <> n -> k <> N.succ n ->
  (N.succ n ?= k) = (n ?= k) /\ (k ?= N.succ n) = (k ?= n).
Proof.
  intros H1 H2. rewrite (N.compare_antisym (N.succ n) k), (N.compare_antisym n k).
  assert (E : (N.succ n ?= k) = (n ?= k)); [|rewrite E; split; reflexivity].
  destruct (N.compare_spec n k) as [E|L|G].
  - symmetry in E. contradiction.
  - apply N.compare_lt_iff. lia.
  - apply N.compare_gt_iff. lia.
Qed.

Lemma seg_begin_succ strk : seg_begin strk = N.succ (seg_kind strk).
Proof. destruct strk; reflexivity. Qed.

Lemma kind_ok_not_begin k strk : kind_ok k = true -> k <> seg_begin strk.
Proof. intros H ->. destruct strk; discriminate H. Qed.

Lemma seg_of_other strk p y ra rb : wf_token y = true -> kind y <> seg_kind strk ->
  cmp_tokens (seg_of strk p ++ ra) (y :: rb) =
    match tok_ord (mkseg (seg_kind strk) strk p) y with Eq => cmp_tokens ra rb | c => Some c end /\
  cmp_tokens (y :: rb) (seg_of strk p ++ ra) =
    match tok_ord y (mkseg (seg_kind strk) strk p) with Eq => cmp_tokens rb ra | c => Some c end.
Proof.
  intros Hy Hne. apply wf_token_shape, shape_kind, proj2, (kind_ok_not_begin _ strk) in Hy.
  rewrite seg_begin_succ in Hy. unfold seg_of, tok_ord. cbn [app]. rewrite !cmp_tokens_step. cbn [kind mkseg].
  rewrite seg_begin_succ. destruct (compare_succ_other _ _ Hne Hy) as [-> ->].
  split.
  - destruct (seg_kind strk ?= kind y) eqn:E; try reflexivity.
    apply N.compare_eq in E. symmetry in E. contradiction.
  - destruct (kind y ?= seg_kind strk) eqn:E; try reflexivity.
    apply N.compare_eq in E. contradiction.
Qed.

Lemma seg_step x y ra rb : wf_cmp x = true -> wf_cmp y = true ->
  cmp_tokens (seg_tok x ++ ra) (seg_tok y ++ rb) =
  match tok_ord x y with Eq => cmp_tokens ra rb | c => Some c end.
Proof.
  intros Hx Hy. pose proof (wf_cmp_token x Hx) as Wx. pose proof (wf_cmp_token y Hy) as Wy.
  destruct (seg_class x Wx) as [(s & p & -> & ->)|[Nx ->]], (seg_class y Wy) as [(s' & q & -> & ->)|[Ny ->]].
  - destruct s, s'; [rewrite seg_of_cmp | | | rewrite seg_of_cmp]; reflexivity.
  - exact (proj1 (seg_of_other s p y ra rb Wy (Ny s))).
  - exact (proj2 (seg_of_other s' q x rb ra Wx (Nx s'))).
  - apply cmp_tokens_cons; assumption.
Qed.

Lemma cmp_segmentize a b : wf_cmps a -> wf_cmps b ->
  cmp_tokens (segmentize a) (segmentize b) = Some (lex a b).
Proof.
  intros Ha. revert b. induction Ha as [|x a Hx _ IH]; intros _ [|y b Hy Hb];
    cbn [segmentize flat_map lex].
  - reflexivity.
  - destruct (seg_tok_cons y) as (h & tl & ->). reflexivity.
  - destruct (seg_tok_cons x) as (h & tl & ->). reflexivity.
  - rewrite (seg_step x y _ _ Hx Hy). destruct (tok_ord x y); try reflexivity. exact (IH b Hb).
Qed.

Lemma enc_val_seg (strk : bool) p :
  enc_val (if strk then VStr p else VBytes p) = len_prefix (lenN p) ++ p.
Proof. destruct strk; reflexivity. Qed.

Lemma decode_cmp_step_tok maxlen t rest off : wf_enc maxlen t ->
  decode_cmp_step maxlen false (encode_token t ++ rest) off
  = CToks (seg_tok t) rest (off + lenN (encode_token t)).
Proof.
  intros Henc. pose proof Henc as [Hwf Hlen].
  destruct (seg_class t Hwf) as [(strk & p & -> & ->)|[Nk ->]].
  - unfold encode_token. cbn [kind val mkseg app] in *. rewrite enc_val_seg in *.
    assert (Hlen' : lenN p <= maxlen /\ lenN p < 2 ^ 56) by (destruct strk; exact Hlen).
    destruct Hlen' as [Hm Hl].
    rewrite (cmp_step_seg strk), <- app_assoc.
    rewrite (read_len_complete maxlen false strk (lenN p) _ (p ++ rest) (off + 1)
               (len_prefix_field maxlen (lenN p) Hm Hl)).
    rewrite (segments_chunks _ strk false _ (S (length p)) init_step p rest)
      by (try reflexivity; rewrite ?app_length; apply Nat.lt_succ_r; auto using Nat.le_add_r).
    unfold seg_of. f_equal. rewrite lenN_cons, !lenN_app. lia.
  - pose proof (step_exact maxlen false t rest off Henc) as Hstep.
    unfold encode_token in *. cbn [app] in *. rewrite cmp_step_other, Hstep; [reflexivity|].
    apply orb_false_iff. split; apply N.eqb_neq; [apply (Nk true) | apply (Nk false)].
Qed.

Lemma decode_cmp_all_encode maxlen ts : Forall (wf_enc maxlen) ts -> forall f off,
  (length ts < f)%nat ->
  decode_cmp_all f maxlen false (encode ts) off = (segmentize ts, Done).
Proof.
  intros Hts. induction Hts as [|t ts Ht Hts IH]; intros f off Hf; (destruct f as [|f]; [inversion Hf|]).
  - reflexivity.
  - rewrite encode_cons. cbn [decode_cmp_all]. rewrite (decode_cmp_step_tok maxlen t _ off Ht).
    rewrite IH by (apply Nat.succ_lt_mono; exact Hf). reflexivity.
Qed.

Theorem decode_cmp_encode maxlen ts : Forall (wf_enc maxlen) ts ->
  decode_cmp maxlen (encode ts) = (segmentize ts, Done).
Proof.
  intros Hts. unfold decode_cmp. apply decode_cmp_all_encode; [exact Hts|].
  pose proof (encode_length_ge ts). lia.
Qed.

Lemma wf_route_encs maxlen ts : Forall wf_route ts ->
  (forall t, In t ts -> match val t with VStr s | VBytes s => lenN s <= maxlen | _ => True end) ->
  Forall (wf_enc maxlen) ts.
Proof.
  intros H Hm. rewrite Forall_forall in *. intros t Ht. destruct (H t Ht) as [Hc Hl].
  specialize (Hm t Ht). split; [apply wf_cmp_token; exact Hc|].
  destruct (val t); try exact I; split; assumption.
Qed.

Lemma wf_route_cmps ts : Forall wf_route ts -> wf_cmps ts.
Proof. intros H. eapply Forall_impl; [|exact H]. intros t [Ht _]. exact Ht. Qed.

Theorem segmented_route maxlen a b : Forall wf_route a -> Forall wf_route b ->
  (forall t, In t (a ++ b) ->
     match val t with VStr s | VBytes s => lenN s <= maxlen | _ => True end) ->
  cmp_segmented maxlen (encode a) (encode b) = Some (lex a b).
Proof.
  intros Ha Hb Hm. unfold cmp_segmented.
  rewrite !decode_cmp_encode
    by (apply wf_route_encs; [assumption | intros t Ht; apply Hm, in_or_app; auto]).
  apply cmp_segmentize; apply wf_route_cmps; assumption.
Qed.

Example segmented_route_ex :
  let a := [T KString (VStr (expand [(24, 7)])); T KNil VNone] in
  let b := [T KString (VStr (expand [(24, 7); (5, 1)]))] in
  Forall wf_route a /\ Forall wf_route b /\
  (forall t, In t (a ++ b) ->
     match val t with VStr s | VBytes s => lenN s <= 64 | _ => True end) /\
  cmp_segmented 64 (encode a) (encode b) = Some Lt /\
  cmp_bytes (encode a) (encode b) = CB Lt /\ cmp_tokens a b = Some Lt.
Proof.
  cbv zeta. split; [repeat constructor|]. split; [repeat constructor|]. split.
  - intros t Ht. cbn [app In] in Ht.
    destruct Ht as [<-|[<-|[<-|[]]]]; vm_compute; first [exact I | discriminate].
  - vm_compute. repeat split.
Qed.

Corollary routes_agree maxlen a b : Forall wf_route a -> Forall wf_route b ->
  (forall t, In t (a ++ b) ->
     match val t with VStr s | VBytes s => lenN s <= maxlen | _ => True end) ->
  exists c, cmp_tokens a b = Some c /\ cmp_bytes (encode a) (encode b) = CB c /\
            cmp_segmented maxlen (encode a) (encode b) = Some c.
Proof.
  intros Ha Hb Hm. exists (lex a b). split; [|split].
  - apply cmp_is_lex; apply wf_route_cmps; assumption.
  - apply bytes_route; assumption.
  - apply segmented_route; assumption.
Qed.

Print Assumptions cmp_is_lex.
Print Assumptions lex_refl.
Print Assumptions lex_antisym.
Print Assumptions lex_trans.
Print Assumptions lex_trans_lt.
Print Assumptions lex_trans_lt'.
Print Assumptions lex_eq_iff.
Print Assumptions tok_same_wf.
Print Assumptions lex_prefix.
Print Assumptions min_max.
Print Assumptions nan_payload_irreflexive.
Print Assumptions bytes_route.
Print Assumptions segments_like_unsplit.
Print Assumptions segments_prefix.
Print Assumptions decode_cmp_encode.
Print Assumptions segmented_route.
Print Assumptions routes_agree.
