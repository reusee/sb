(* Proofs/PipelineAnyP.v — C13 without the C11 premise.

   The pipeline theorems of Proofs/PipelineP.v carry the premise
     any_roundtrip R pf (flatten v) = Ok (flatten v)
   (Spec/Pipeline.v: unmarshal into `any` with fuel 2000 + 4 * length ts, marshal again).  That
   premise is property C11; it is discharged here
   - for the schema-less domain [any_ok] of Proofs/AnyP.v, unconditionally;
   - for the domain with registered values [any_ok_reg] of Proofs/AnyRegP.v, under a side
     condition on the fuel constant of [any_roundtrip] (the statement without it is false of the
     model: any_roundtrip_of_any_ok_reg_refuted). *)
From Coq Require Import List NArith ZArith Bool Arith Lia ZifyBool ZifyNat ZifyN.
From SbModel Require Import Base.Bytes Base.Tokens Base.Values Model.Codec Model.Hash Model.Tree
  Model.Types Spec.DecodeGrammar Spec.TreeSpec Spec.Pipeline.
From SbModel Require Import Spec.Conform.
From SbModel Require Import Proofs.HashP Proofs.UnmarshalP Proofs.MarshalP Proofs.PipelineP Proofs.AnyP Proofs.RoundTripFullP
  Proofs.AnyRegP.
Import ListNotations.

(* [any_roundtrip] below is the stage of Spec/Pipeline.v, not the theorem of Proofs/AnyP.v *)

(* The fuel [any_roundtrip] runs with, under a name for the proofs only (statements write it out, as
   Spec/Pipeline.v does): a goal that shows the numeral is walked by every tactic that touches it.
   Proofs go through the two lemmas below. *)
Definition any_fuel (ts : list token) : nat := 2000 + 4 * length ts.

Lemma any_roundtrip_eq R pf ts :
  Pipeline.any_roundtrip R pf ts =
  bind (unm pf (any_fuel ts) default_opts R TAny (GAny None) ts) (fun r => marshal default_opts TAny (fst r)).
Proof. reflexivity. Qed.

Lemma any_fuel_ge ts : length ts <= any_fuel ts.
Proof. unfold any_fuel. generalize 2000. lia. Qed.

Theorem any_roundtrip_of_any_ok R pf v : any_ok R v -> Pipeline.any_roundtrip R pf (flatten v) = Ok (flatten v).
Proof.
  intros Hok.
  pose proof (any_unm pf default_opts R v _ [] Hok (any_fuel_ge _)) as Hu. rewrite app_nil_r in Hu.
  rewrite any_roundtrip_eq, Hu. apply (any_marshal R v Hok).
Qed.

Theorem stage_identity_any H R pf v s :
  wf_value v = true -> ref_free v = true ->
  Forall (wf_enc default_maxlen) (flatten v) ->
  (forall x, H x <> []) ->
  any_ok R v ->
  stage_side H v s ->
  run_stage H R pf s (flatten v) = Ok (flatten v).
Proof.
  intros. apply stage_identity; auto using any_roundtrip_of_any_ok.
Qed.

Theorem pipeline_identity_any H R pf v p :
  wf_value v = true -> ref_free v = true ->
  Forall (wf_enc default_maxlen) (flatten v) ->
  (forall x, H x <> []) ->
  any_ok R v ->
  Forall (stage_side H v) p ->
  run_pipeline H R pf p (flatten v) = Ok (flatten v).
Proof.
  intros. apply pipeline_identity; auto using any_roundtrip_of_any_ok.
Qed.

Corollary pipeline_hash_any H R pf v p :
  wf_value v = true -> ref_free v = true ->
  Forall (wf_enc default_maxlen) (flatten v) ->
  (forall x, H x <> []) ->
  any_ok R v ->
  Forall (stage_side H v) p ->
  exists out, run_pipeline H R pf p (flatten v) = Ok out /\ hash_result H out = inl (mhash H v).
Proof.
  intros. apply pipeline_hash; auto using any_roundtrip_of_any_ok.
Qed.

Corollary pipeline_identity_inj_any H R pf v p L :
  wf_value v = true -> ref_free v = true ->
  Forall (wf_enc default_maxlen) (flatten v) ->
  inj H -> fixed_len H L -> 0 < L ->
  any_ok R v ->
  (forall sel, In (StSubstDeref sel) p -> forall j, In j sel -> ~ In j (end_indices 0 v)) ->
  run_pipeline H R pf p (flatten v) = Ok (flatten v).
Proof.
  intros. apply (pipeline_identity_inj H R pf v p L); auto using any_roundtrip_of_any_ok.
Qed.

Lemma unm_transfer pf o R t cur ts f0 y F :
  (forall f, f0 <= f -> unm pf f o R t cur ts = Ok y) ->
  unm pf F o R t cur ts <> OutOfFuel ->
  unm pf F o R t cur ts = Ok y.
Proof.
  intros Hst Hne.
  pose proof (unm_fuel_mono pf o R F t cur ts _ eq_refl Hne (Nat.max F f0) ltac:(lia)) as Hm.
  rewrite <- Hm. apply Hst. lia.
Qed.

Definition any_fuel_ok (R : registry) (pf : bytes -> N -> option N) (ts : list token) : Prop :=
  unm pf (2000 + 4 * length ts) default_opts R TAny (GAny None) ts <> OutOfFuel.

Theorem any_roundtrip_of_any_ok_reg_partial R pf v :
  any_ok_reg R v -> any_fuel_ok R pf (flatten v) -> Pipeline.any_roundtrip R pf (flatten v) = Ok (flatten v).
Proof.
  intros Hok Hne.
  destruct (any_reg_roundtrip_stable pf default_opts R v [] Hok) as (g & _ & Hm & f0 & Hu).
  rewrite app_nil_r in Hu.
  rewrite any_roundtrip_eq, (unm_transfer pf default_opts R TAny (GAny None) _ f0 (g, []) (any_fuel _) Hu Hne).
  exact Hm.
Qed.

(* the bound of UnmarshalP.unm_total_bound: every token may switch the untyped target to a
   registered type, whose chain of pointers and definitions is at most reg_depth R long *)
Lemma any_fuel_ok_bound R pf ts :
  length ts * S (reg_depth R) + 2 <= 2000 + 4 * length ts -> any_fuel_ok R pf ts.
Proof.
  unfold any_fuel_ok. generalize (2000 + 4 * length ts). intros f Hb.
  rewrite (unm_fuel_enough pf default_opts R TAny (GAny None) ts f) by (cbn [ty_depth]; lia).
  apply unm_total_bound.
Qed.

Lemma any_fuel_ok_depth3 R pf ts : reg_depth R <= 3 -> any_fuel_ok R pf ts.
Proof. intros Hd. apply any_fuel_ok_bound. nia. Qed.

Corollary any_roundtrip_of_any_ok_reg_bound R pf v :
  any_ok_reg R v ->
  length (flatten v) * S (reg_depth R) + 2 <= 2000 + 4 * length (flatten v) ->
  Pipeline.any_roundtrip R pf (flatten v) = Ok (flatten v).
Proof. intros Hok Hb. apply any_roundtrip_of_any_ok_reg_partial; [exact Hok|apply any_fuel_ok_bound, Hb]. Qed.

Corollary any_roundtrip_of_any_ok_reg_depth3 R pf v :
  any_ok_reg R v -> reg_depth R <= 3 -> Pipeline.any_roundtrip R pf (flatten v) = Ok (flatten v).
Proof. intros Hok Hd. apply any_roundtrip_of_any_ok_reg_partial; [exact Hok|apply any_fuel_ok_depth3, Hd]. Qed.

Theorem stage_identity_any_reg H R pf v s :
  wf_value v = true -> ref_free v = true ->
  Forall (wf_enc default_maxlen) (flatten v) ->
  (forall x, H x <> []) ->
  any_ok_reg R v -> any_fuel_ok R pf (flatten v) ->
  stage_side H v s ->
  run_stage H R pf s (flatten v) = Ok (flatten v).
Proof.
  intros. apply stage_identity; auto using any_roundtrip_of_any_ok_reg_partial.
Qed.

Theorem pipeline_identity_any_reg H R pf v p :
  wf_value v = true -> ref_free v = true ->
  Forall (wf_enc default_maxlen) (flatten v) ->
  (forall x, H x <> []) ->
  any_ok_reg R v -> any_fuel_ok R pf (flatten v) ->
  Forall (stage_side H v) p ->
  run_pipeline H R pf p (flatten v) = Ok (flatten v).
Proof.
  intros. apply pipeline_identity; auto using any_roundtrip_of_any_ok_reg_partial.
Qed.

Corollary pipeline_hash_any_reg H R pf v p :
  wf_value v = true -> ref_free v = true ->
  Forall (wf_enc default_maxlen) (flatten v) ->
  (forall x, H x <> []) ->
  any_ok_reg R v -> any_fuel_ok R pf (flatten v) ->
  Forall (stage_side H v) p ->
  exists out, run_pipeline H R pf p (flatten v) = Ok out /\ hash_result H out = inl (mhash H v).
Proof.
  intros. apply pipeline_hash; auto using any_roundtrip_of_any_ok_reg_partial.
Qed.

(* Without the side condition the statement is false of the model: a registered defined
   type over a chain of 2100 pointers.  The stream of a value of it has two tokens, so
   [any_roundtrip] runs with fuel 2008, and every pointer of the chain costs one unit.  (This
   is about the fuel constant of Spec/Pipeline.v, a device of the model: the Go code has no
   fuel.) *)
Fixpoint ptr_val_n (n : nat) (x : gval) : gval := match n with O => x | S k => GPtr (Some (ptr_val_n k x)) end.

(* type D *...*bool with S n stars, registered *)
Definition DeepT (n : nat) : ty := TNamed [68%N] true [] (TPtr (ptr_ty_n n TBool)).
Definition DeepR (n : nat) : registry := [([68%N], DeepT n)].
Definition deep_v : value := Named [68%N] (Leaf (T KBool (VBool true))).

Lemma ptr_n_facts R : forall n,
  wf_ty (ptr_ty_n n TBool) = true /\ ty_ok (ptr_ty_n n TBool) = true /\
  anyb (ptr_ty_n n TBool) = false /\
  has_type (ptr_ty_n n TBool) (ptr_val_n n (GBool true)) = true /\
  nilish (ptr_val_n n (GBool true)) = false /\
  dom R (ptr_ty_n n TBool) (ptr_val_n n (GBool true)) /\
  marshal default_opts (ptr_ty_n n TBool) (ptr_val_n n (GBool true)) = Ok [T KBool (VBool true)].
Proof.
  induction n as [|n (Hwf & Hok & Hany & Hty & Hnil & Hdom & Hm)].
  - repeat split; reflexivity.
  - cbn [ptr_ty_n ptr_val_n]. rewrite marshal_ptr. repeat split; assumption.
Qed.

Lemma deep_ok n : any_ok_reg (DeepR n) deep_v.
Proof.
  destruct (ptr_n_facts (DeepR n) n) as (Hwf & Hok & Hany & Hty & Hnil & Hdom & Hm).
  exists (DeepT n), (GPtr (Some (ptr_val_n n (GBool true)))). unfold DeepT.
  split; [reflexivity|]. split; [reflexivity|]. split; [exact Hwf|].
  split; [cbn [ty_ok]; rewrite Hok; exact (f_equal negb Hany)|].
  split; [exact Hty|]. split; [exact (conj Hnil Hdom)|].
  rewrite marshal_named_reg by reflexivity. rewrite marshal_ptr, Hm. reflexivity.
Qed.

(* one unit for the interface target, which looks the name up; then the chain *)
Lemma deep_out_of_fuel pf n f :
  f <= n + 2 -> unm pf f default_opts (DeepR n) TAny (GAny None) (flatten deep_v) = OutOfFuel.
Proof.
  intros Hf. destruct f as [|f]; [apply unm_O|]. cbn [deep_v flatten].
  rewrite (unm_any_tn pf default_opts (DeepR n) f _ [68%N] (DeepT n)) by reflexivity.
  rewrite (unm_ptr_chain pf default_opts (DeepR n) TBool (T KBool (VBool true)) []
             ltac:(split; reflexivity) eq_refl ltac:(discriminate) f (S n) (DeepT n))
    by (reflexivity || lia).
  reflexivity.
Qed.

(* 2100 pointers; kept behind a name so that no step of the proof below walks the numeral *)
Definition deep_n : nat := 2099.

Theorem any_roundtrip_of_any_ok_reg_refuted :
  exists R pf v, any_ok_reg R v /\ Pipeline.any_roundtrip R pf (flatten v) <> Ok (flatten v).
Proof.
  exists (DeepR deep_n), pf0, deep_v. split; [apply deep_ok|].
  rewrite any_roundtrip_eq, deep_out_of_fuel; [discriminate|].
  apply Nat.leb_le. reflexivity.
Qed.

Module Examples.
  Import PipelineP.Examples.
  Local Open Scope N_scope.

  (* []any{1, "s", map[string]any{"a": 2.5}}
     indices: 0 array, 1 int, 2 string, 3 map, 4 key, 5 float, 6 map end, 7 array end *)
  Definition ex_a : value :=
    Comp KArray KArrayEnd
      [Leaf (T KInt (VI WNat 1)); Leaf (T KString (VStr [115]));
       Comp KMap KMapEnd [Leaf (T KString (VStr [97])); Leaf (T KFloat64 (VF64 4612811918334230528))]].

  Definition ex_prog : list stage := [StAny; StSubstDeref [3]%nat; StTupleWrap].

  Example ex_a_hyps :
    wf_value ex_a = true /\ ref_free ex_a = true /\ Forall (wf_enc default_maxlen) (flatten ex_a) /\
    (forall R, any_ok R ex_a) /\ Forall (stage_side toy3 ex_a) ex_prog.
  Proof.
    split; [reflexivity|]. split; [reflexivity|]. split.
    { repeat (constructor; [split; [reflexivity | try exact I; split; vm_compute; congruence]|]).
      constructor. }
    split; [intros R; vm_compute; reflexivity|].
    unfold ex_prog. repeat match goal with |- Forall _ _ => constructor end; try exact I.
    split; [|collision_cases].
    intros j Hj Hin. vm_compute in Hin. cbn [In] in Hj. lia.
  Qed.

  (* pipeline_identity_any instantiated: no C11 premise left, for every registry and every
     ParseFloat *)
  Example ex_pipeline_identity_any R pf :
    run_pipeline toy3 R pf ex_prog (flatten ex_a) = Ok (flatten ex_a) /\
    exists out, run_pipeline toy3 R pf ex_prog (flatten ex_a) = Ok out /\
                hash_result toy3 out = inl (mhash toy3 ex_a).
  Proof.
    destruct ex_a_hyps as (Hwf & Hrf & Henc & Hok & Hside).
    split; [apply pipeline_identity_any|apply pipeline_hash_any]; try assumption; try exact toy3_ne; apply Hok.
  Qed.

  Example ex_pipeline_any_computes : run_pipeline toy3 [] no_pf ex_prog (flatten ex_a) = Ok (flatten ex_a).
  Proof. vm_compute. reflexivity. Qed.

  (* the domain with registered values: []any{R1{1, "s"}, 5, R1{2, R1{3, nil}}} of Proofs/AnyRegP.v;
     the side condition on the fuel holds (the registry has depth 3) *)
  Example ex_reg_pipeline pf :
    reg_depth RegR1 = 3%nat /\
    run_pipeline toy3 RegR1 pf [StAny; StCodec; StTee3 1; StTupleWrap; StFindRoot] (flatten ex_reg_v) = Ok (flatten ex_reg_v).
  Proof.
    split; [reflexivity|].
    apply pipeline_identity_any_reg; try reflexivity.
    - repeat (constructor; [split; [reflexivity | try exact I; split; vm_compute; congruence]|]).
      constructor.
    - exact toy3_ne.
    - exact ex_reg_ok.
    - apply any_fuel_ok_depth3. vm_compute. lia.
    - repeat constructor.
  Qed.
End Examples.

Definition PipelineAnyP_main_theorems :=
  (any_roundtrip_of_any_ok, stage_identity_any, pipeline_identity_any, pipeline_hash_any, pipeline_identity_inj_any,
   any_roundtrip_of_any_ok_reg_partial, any_roundtrip_of_any_ok_reg_bound, any_roundtrip_of_any_ok_reg_depth3,
   any_fuel_ok_bound, any_fuel_ok_depth3, any_roundtrip_of_any_ok_reg_refuted,
   stage_identity_any_reg, pipeline_identity_any_reg, pipeline_hash_any_reg,
   Examples.ex_pipeline_identity_any, Examples.ex_reg_pipeline).
Print Assumptions PipelineAnyP_main_theorems.
