(* Proofs/SkipEmptyP.v — C16, the skip-empty clause: "with empty-field skipping enabled the
   marshaller omits exactly the zero-valued fields and empty slices, and the shortened stream
   still round-trips to an equivalent value."
   The struct stream is Object, the kept fields (an explicit [filter]) in declaration order, ObjectEnd.
   The round trip holds for every marshalling option set [mo] on the universe simple_ty, with the
   returned value [normal_o (skip_empty mo) t v]: like [normal], but every omitted field (at every
   nesting depth) holds the zero value of its type (proved in UnmarshalP as [roundtrip_w]).
   [deq] is deep equality identifying +0.0/-0.0, any two NaNs, nil/empty slices, byte slices and maps;
   normal_se_equiv : deq (normal_se t v) (normal t v). *)
From Coq Require Import Lia ZifyBool ZifyNat ZifyN Arith.
From SbModel Require Import Spec.Conform Proofs.MarshalP Proofs.UnmarshalP.
Local Open Scope N_scope.

Definition se_opts : copts := Opts true false false.

Notation field := (bytes * bool * ty)%type (only parsing).

(* the marshaller's test (marshal.go, under ctx.SkipEmptyStructFields): reflect.Value.IsZero, or a slice
   kind of length 0 *)
Definition empty_field (ft : ty) (x : gval) : bool :=
  is_zero ft x || (is_slice_kind ft && Nat.eqb (glen x) 0).

Definition kept (o : copts) (p : field * gval) : bool :=
  fexported (fst p) && negb (skip_empty o && empty_field (ftype (fst p)) (snd p)).

Definition kept_fields (o : copts) (fs : list field) (vals : list gval) : list (field * gval) :=
  filter (kept o) (combine fs vals).

Fixpoint fields_stream (o : copts) (l : list (field * gval)) : res (list token) :=
  match l with
  | [] => Ok []
  | p :: r =>
      bind (marshal o (ftype (fst p)) (snd p)) (fun a =>
      bind (fields_stream o r) (fun b => Ok (T KString (VStr (fname (fst p))) :: a ++ b)))
  end.

Lemma marshal_fields_kept o : forall vals fs, marshal_fields o vals fs = fields_stream o (kept_fields o fs vals).
Proof.
  induction vals as [|x vals IH]; intros [|fd fs]; try reflexivity.
  rewrite marshal_fields_cons. fold (empty_field (snd fd) x).
  assert (E : kept_fields o (fd :: fs) (x :: vals) =
              if kept o (fd, x) then (fd, x) :: kept_fields o fs vals else kept_fields o fs vals) by reflexivity.
  rewrite E. unfold kept. cbn [fst snd]. unfold ftype.
  destruct (skip_empty o && empty_field (snd fd) x) eqn:Esk; cbn [negb].
  - rewrite andb_false_r. apply IH.
  - rewrite andb_true_r. destruct (fexported fd); cbn [negb]; [|apply IH].
    cbn [fields_stream fst snd]. unfold ftype. rewrite <- IH. reflexivity.
Qed.

Theorem fields_exact_gen o t fs vals :
  underlying t = TStruct fs ->
  marshal o t (GStruct vals) =
  bind (fields_stream o (kept_fields o fs vals))
       (fun body => Ok (reg_prefix t ++ T KObject VNone :: body ++ [T KObjectEnd VNone])).
Proof.
  intros Hut. rewrite marshal_GStruct. unfold fields_of. rewrite Hut, marshal_fields_kept.
  destruct (fields_stream o (kept_fields o fs vals)); reflexivity.
Qed.

(* C16, "omits exactly the zero-valued fields and empty slices" *)
Theorem skip_empty_fields_exact t fs vals :
  underlying t = TStruct fs ->
  marshal se_opts t (GStruct vals) =
  bind (fields_stream se_opts
          (filter (fun p => fexported (fst p) && negb (empty_field (ftype (fst p)) (snd p))) (combine fs vals)))
       (fun body => Ok (reg_prefix t ++ T KObject VNone :: body ++ [T KObjectEnd VNone])).
Proof. exact (fields_exact_gen se_opts t fs vals). Qed.

Theorem skip_empty_fields_exact_opts o t fs vals :
  skip_empty o = true -> underlying t = TStruct fs ->
  marshal o t (GStruct vals) =
  bind (fields_stream o
          (filter (fun p => fexported (fst p) && negb (empty_field (ftype (fst p)) (snd p))) (combine fs vals)))
       (fun body => Ok (reg_prefix t ++ T KObject VNone :: body ++ [T KObjectEnd VNone])).
Proof.
  intros Hse Hut. rewrite (fields_exact_gen o t fs vals Hut). unfold kept_fields, kept. rewrite Hse. reflexivity.
Qed.

Corollary noskip_all_exported_fields o t fs vals :
  skip_empty o = false -> underlying t = TStruct fs ->
  marshal o t (GStruct vals) =
  bind (fields_stream o (filter (fun p => fexported (fst p)) (combine fs vals)))
       (fun body => Ok (reg_prefix t ++ T KObject VNone :: body ++ [T KObjectEnd VNone])).
Proof.
  intros Hse Hut. rewrite (fields_exact_gen o t fs vals Hut). unfold kept_fields.
  rewrite (filter_ext (kept o) (fun p => fexported (fst p))); [reflexivity|].
  intros p. unfold kept. rewrite Hse. cbn [andb negb]. apply andb_true_r.
Qed.

Lemma kept_fields_spec fs vals fd x :
  In (fd, x) (kept_fields se_opts fs vals) <->
  In (fd, x) (combine fs vals) /\ fexported fd = true /\
  is_zero (ftype fd) x = false /\ (is_slice_kind (ftype fd) && Nat.eqb (glen x) 0) = false.
Proof.
  unfold kept_fields. rewrite filter_In. unfold kept, empty_field. cbn [fst snd skip_empty se_opts andb].
  rewrite andb_true_iff, negb_true_iff, orb_false_iff. tauto.
Qed.

Definition field_tokens (pa : (field * gval) * list token) : list token :=
  T KString (VStr (fname (fst (fst pa)))) :: snd pa.

Lemma fields_stream_ok o : forall l body,
  fields_stream o l = Ok body <->
  exists streams, Forall2 (fun p a => marshal o (ftype (fst p)) (snd p) = Ok a) l streams /\
                  body = concat (map field_tokens (combine l streams)).
Proof.
  induction l as [|p l IH]; intros body; cbn [fields_stream].
  - split.
    + intros H. injection H as <-. exists []. split; [constructor|reflexivity].
    + intros (streams & HF & ->). inversion HF. reflexivity.
  - split.
    + intros H. apply bind2_ok in H. destruct H as (a & b & Ha & Hb & ->).
      apply IH in Hb. destruct Hb as (streams & HF & ->).
      exists (a :: streams). split; [constructor; assumption|]. reflexivity.
    + intros (streams & HF & ->). inversion HF as [|p' a l' streams' Ha HF' E1 E2]. subst.
      rewrite Ha. cbn [bind].
      assert (Hb : fields_stream o l = Ok (concat (map field_tokens (combine l streams')))).
      { apply IH. exists streams'. split; [exact HF'|reflexivity]. }
      rewrite Hb. reflexivity.
Qed.

Theorem skip_empty_fields_exact_ok t fs vals ts :
  underlying t = TStruct fs ->
  (marshal se_opts t (GStruct vals) = Ok ts <->
   exists streams,
     Forall2 (fun p a => marshal se_opts (ftype (fst p)) (snd p) = Ok a) (kept_fields se_opts fs vals) streams /\
     ts = reg_prefix t ++ T KObject VNone ::
          concat (map field_tokens (combine (kept_fields se_opts fs vals) streams)) ++ [T KObjectEnd VNone]).
Proof.
  intros Hut. rewrite (fields_exact_gen se_opts t fs vals Hut). split.
  - intros H. apply bind_ok in H. destruct H as (body & Hb & H). injection H as <-.
    apply fields_stream_ok in Hb. destruct Hb as (streams & HF & ->). exists streams. split; [exact HF|reflexivity].
  - intros (streams & HF & ->).
    assert (Hb : fields_stream se_opts (kept_fields se_opts fs vals)
                 = Ok (concat (map field_tokens (combine (kept_fields se_opts fs vals) streams)))).
    { apply fields_stream_ok. exists streams. split; [exact HF|reflexivity]. }
    rewrite Hb. reflexivity.
Qed.

(* what a zero T holds after unmarshalling the stream of v written with skip_empty = se: as
   [normal], except that a field the marshaller omitted holds the zero value of its type.  The
   option applies at every depth (fields of structs inside slices, arrays, pointers, structs). *)
Fixpoint normal_o (se : bool) (t : ty) (v : gval) {struct v} : gval :=
  match v with
  | GF32 b => if f32_is_nan b then GF32 f32_nan_bits else v
  | GF64 b => if f64_is_nan b then GF64 f64_nan_bits else v
  | GBytes isnil s => GBytes false s
  | GList isnil items =>
      match underlying t with
      | TArray _ e => GList false (map (normal_o se e) items)
      | TSlice e => GList (match items with [] => true | _ => false end) (map (normal_o se e) items)
      | _ => v
      end
  | GStruct vals =>
      match underlying t with
      | TStruct fs =>
          GStruct ((fix go (l : list gval) (f : list (bytes * bool * ty)) : list gval :=
                      match l, f with
                      | x :: r, fd :: fr =>
                          (if fexported fd && negb (se && empty_field (snd fd) x)
                           then normal_o se (snd fd) x else zero (snd fd)) :: go r fr
                      | _, _ => []
                      end) vals fs)
      | _ => v
      end
  | GPtr (Some x) => match underlying t with TPtr e => GPtr (Some (normal_o se e x)) | _ => v end
  | _ => v
  end.

Definition normal_se : ty -> gval -> gval := normal_o true.

(* the same function as [normal_w] of UnmarshalP (the two fixpoints have the same body), about which the
   round trip is proved there for every writer option set *)
Lemma normal_o_w : normal_o = normal_w.
Proof. reflexivity. Qed.

Section RoundTripO.
Variable pf : bytes -> N -> option N.
Variable mo : copts.      (* the writer's options *)
Variable o : copts.       (* the reader's options *)
Variable R : registry.

Definition rt_ok_o (v : gval) : Prop :=
  forall t ts, wf_ty t = true -> simple_ty t = true ->
    has_type t v = true -> no_ptr_to_nil v = true -> marshal mo t v = Ok ts ->
    forall pre f rest, forallb is_tn pre = true ->
    (length pre + 2 * vsize v < f + length (leadl ts))%nat ->
    unm pf f o R t (zero t) (pre ++ strip ts ++ rest) = Ok (normal_o (skip_empty mo) t v, rest).

Theorem roundtrip_all_o : forall v, rt_ok_o v.
Proof. exact (roundtrip_w pf mo o R). Qed.

End RoundTripO.

Theorem roundtrip_opts_fuel pf mo o R t v ts rest f :
  wf_ty t = true -> simple_ty t = true ->
  has_type t v = true -> no_ptr_to_nil v = true ->
  marshal mo t v = Ok ts -> (2 * vsize v < f)%nat ->
  unm pf f o R t (zero t) (ts ++ rest) = Ok (normal_o (skip_empty mo) t v, rest).
Proof.
  intros Hwf Hs Ht Hn Hm Hf. rewrite <- (leadl_strip ts), <- app_assoc.
  apply (roundtrip_all_o pf mo o R v t ts); try assumption; [apply leadl_tn|lia].
Qed.

Definition f32_deq (a b : N) : bool := (a =? b) || (f32_is_nan a && f32_is_nan b) || f32_eq a b.
Definition f64_deq (a b : N) : bool := (a =? b) || (f64_is_nan a && f64_is_nan b) || f64_eq a b.

Definition is_nil_list {A} (l : list A) : bool := match l with [] => true | _ => false end.

(* deq a b: a and b have the same shape and equal leaves, except that
     - two floats are related when they are ==, or both NaN (so +0.0 ~ -0.0);
     - the nil flag of a slice, byte slice or map is ignored when the container is empty
       (nil ~ empty); it must agree on non-empty containers;
   everything else (booleans, integers, strings, bytes, time images, dynamic types of
   interfaces, pointer nil-ness, lengths, order of entries) must agree exactly. *)
Fixpoint deq (a b : gval) {struct a} : bool :=
  match a, b with
  | GBool x, GBool y => Bool.eqb x y
  | GInt x, GInt y => (x =? y)%Z
  | GUint x, GUint y => x =? y
  | GF32 x, GF32 y => f32_deq x y
  | GF64 x, GF64 y => f64_deq x y
  | GStr x, GStr y => bytes_eqb x y
  | GBytes n x, GBytes m y => (Bool.eqb n m || is_nil_list x) && bytes_eqb x y
  | GTime x, GTime y => bytes_eqb x y
  | GList n l, GList m k =>
      (Bool.eqb n m || is_nil_list l) &&
      (fix go (p q : list gval) : bool :=
         match p, q with [], [] => true | x :: p', y :: q' => deq x y && go p' q' | _, _ => false end) l k
  | GMap n l, GMap m k =>
      (Bool.eqb n m || is_nil_list l) &&
      (fix go (p q : list (gval * gval)) : bool :=
         match p, q with
         | [], [] => true
         | (k1, v1) :: p', (k2, v2) :: q' => deq k1 k2 && deq v1 v2 && go p' q'
         | _, _ => false
         end) l k
  | GStruct l, GStruct k =>
      (fix go (p q : list gval) : bool :=
         match p, q with [], [] => true | x :: p', y :: q' => deq x y && go p' q' | _, _ => false end) l k
  | GPtr None, GPtr None => true
  | GPtr (Some x), GPtr (Some y) => deq x y
  | GAny None, GAny None => true
  | GAny (Some (t, x)), GAny (Some (t', y)) => ty_eqb t t' && deq x y
  | GFunc None, GFunc None => true
  | GFunc (Some l), GFunc (Some k) =>
      (fix go (p q : list gval) : bool :=
         match p, q with [], [] => true | x :: p', y :: q' => deq x y && go p' q' | _, _ => false end) l k
  | _, _ => false
  end.

Definition deq_list : list gval -> list gval -> bool :=
  fix go (p q : list gval) : bool :=
    match p, q with [], [] => true | x :: p', y :: q' => deq x y && go p' q' | _, _ => false end.

Definition deq_entries : list (gval * gval) -> list (gval * gval) -> bool :=
  fix go (p q : list (gval * gval)) : bool :=
    match p, q with
    | [], [] => true
    | (k1, v1) :: p', (k2, v2) :: q' => deq k1 k2 && deq v1 v2 && go p' q'
    | _, _ => false
    end.

Lemma deq_glist n m l k : deq (GList n l) (GList m k) = (Bool.eqb n m || is_nil_list l) && deq_list l k.
Proof. reflexivity. Qed.
Lemma deq_gmap n m l k : deq (GMap n l) (GMap m k) = (Bool.eqb n m || is_nil_list l) && deq_entries l k.
Proof. reflexivity. Qed.
Lemma deq_gstruct l k : deq (GStruct l) (GStruct k) = deq_list l k.
Proof. reflexivity. Qed.
Lemma deq_gfunc l k : deq (GFunc (Some l)) (GFunc (Some k)) = deq_list l k.
Proof. reflexivity. Qed.
Lemma deq_list_cons x y p q : deq_list (x :: p) (y :: q) = deq x y && deq_list p q.
Proof. reflexivity. Qed.

Lemma ty_eqb_refl : forall t, ty_eqb t t = true.
Proof.
  induction t as [|w|w| | | | | |n|n e IHe|e IHe|k v IHk IHv|fs IHfs|e IHe| |outs IHouts|n r d u IHu|] using ty_ind2;
    cbn [ty_eqb]; try reflexivity.
  - apply CodecP.width_eqb_refl.
  - apply CodecP.width_eqb_refl.
  - apply Nat.eqb_refl.
  - rewrite Nat.eqb_refl, IHe. reflexivity.
  - exact IHe.
  - rewrite IHk, IHv. reflexivity.
  - induction IHfs as [|f fs Hf _ IH]; [reflexivity|].
    cbn [andb]. rewrite bytes_eqb_refl, eqb_reflx, Hf, IH. reflexivity.
  - exact IHe.
  - induction IHouts as [|x outs Hx _ IH]; [reflexivity|].
    cbn [andb]. rewrite Hx, IH. reflexivity.
  - rewrite bytes_eqb_refl, eqb_reflx, IHu. reflexivity.
Qed.

Lemma deq_list_refl l : Forall (fun x => deq x x = true) l -> deq_list l l = true.
Proof. induction 1 as [|x l Hx _ IH]; [reflexivity|]. rewrite deq_list_cons, Hx, IH. reflexivity. Qed.

Theorem deq_refl : forall v, deq v v = true.
Proof.
  induction v as [b|z|n|b|b|s|n s|n l IH|n es IH|l IH| |x IH| |t x IH| |l IH|e] using gval_ind3.
  - apply eqb_reflx.
  - apply Z.eqb_refl.
  - apply N.eqb_refl.
  - cbn [deq]. unfold f32_deq. rewrite N.eqb_refl. reflexivity.
  - cbn [deq]. unfold f64_deq. rewrite N.eqb_refl. reflexivity.
  - apply bytes_eqb_refl.
  - cbn [deq]. rewrite eqb_reflx, bytes_eqb_refl. reflexivity.
  - rewrite deq_glist, eqb_reflx, deq_list_refl by exact IH. reflexivity.
  - rewrite deq_gmap, eqb_reflx. cbn [orb andb].
    induction IH as [|[k x] es [Hk Hx] _ IHes]; [reflexivity|].
    cbn [fst snd] in Hk, Hx.
    change (deq_entries ((k, x) :: es) ((k, x) :: es)) with (deq k k && deq x x && deq_entries es es).
    rewrite Hk, Hx, IHes. reflexivity.
  - rewrite deq_gstruct. apply deq_list_refl, IH.
  - reflexivity.
  - exact IH.
  - reflexivity.
  - cbn [deq]. rewrite ty_eqb_refl, IH. reflexivity.
  - reflexivity.
  - rewrite deq_gfunc. apply deq_list_refl, IH.
  - apply bytes_eqb_refl.
Qed.

Definition all_zero (e : ty) : list gval -> bool :=
  fix all (l : list gval) : bool := match l with [] => true | x :: r => is_zero e x && all r end.
Definition fields_zero : list gval -> list field -> bool :=
  fix all (l : list gval) (f : list field) : bool :=
    match l, f with
    | x :: r, fd :: fr => is_zero (snd fd) x && all r fr
    | _, _ => true
    end.

Lemma all_zero_cons e x r : all_zero e (x :: r) = is_zero e x && all_zero e r.
Proof. reflexivity. Qed.
Lemma fields_zero_cons x r fd fr : fields_zero (x :: r) (fd :: fr) = is_zero (snd fd) x && fields_zero r fr.
Proof. reflexivity. Qed.

Lemma is_zero_list t n items :
  is_zero t (GList n items) = match underlying t with TArray _ e => all_zero e items | _ => n end.
Proof. reflexivity. Qed.
Lemma is_zero_struct t vals :
  is_zero t (GStruct vals) = match underlying t with TStruct fs => fields_zero vals fs | _ => false end.
Proof. reflexivity. Qed.

Lemma forallb_zero_rep : forall s, forallb (N.eqb 0) s = true -> s = rep (length s) 0.
Proof.
  induction s as [|b s IH]; [reflexivity|]. cbn [forallb length rep]. intros H.
  apply andb_true_iff in H. destruct H as [Hb Hs]. apply N.eqb_eq in Hb. subst b. f_equal. apply IH, Hs.
Qed.

Lemma f32_zero_deq b : f32_is_nan b = false -> (f32_key b =? 0)%Z = true -> f32_deq 0 b = true.
Proof.
  intros Hn Hk. unfold f32_deq, f32_eq. rewrite Hn.
  replace (f32_is_nan 0) with false by (vm_compute; reflexivity).
  change (f32_key 0) with 0%Z. rewrite Z.eqb_sym, Hk. cbn [negb andb]. apply orb_true_r.
Qed.
Lemma f64_zero_deq b : f64_is_nan b = false -> (f64_key b =? 0)%Z = true -> f64_deq 0 b = true.
Proof.
  intros Hn Hk. unfold f64_deq, f64_eq. rewrite Hn.
  replace (f64_is_nan 0) with false by (vm_compute; reflexivity).
  change (f64_key 0) with 0%Z. rewrite Z.eqb_sym, Hk. cbn [negb andb]. apply orb_true_r.
Qed.

Lemma zero_deq_normal : forall v t,
  has_type t v = true -> is_zero t v = true -> deq (zero t) (normal t v) = true.
Proof.
  induction v as [b|z|n|b|b|s|n s|n l IH|n es|l IH| |x IH|d|r|e] using gval_ind2; intros t Hty Hz;
    rewrite zero_underlying.
  - cbn [has_type is_zero normal] in *. destruct (underlying t); try discriminate Hty.
    destruct b; [discriminate Hz|reflexivity].
  - cbn [has_type is_zero normal] in *. destruct (underlying t); try discriminate Hty.
    apply Z.eqb_eq in Hz. subst z. reflexivity.
  - cbn [has_type is_zero normal] in *. apply N.eqb_eq in Hz. subst n.
    destruct (underlying t); try discriminate Hty; reflexivity.
  - cbn [has_type is_zero normal] in *. destruct (underlying t); try discriminate Hty.
    apply andb_true_iff in Hz. destruct Hz as [Hn Hk]. apply negb_true_iff in Hn. rewrite Hn.
    cbn [zero deq]. apply f32_zero_deq; assumption.
  - cbn [has_type is_zero normal] in *. destruct (underlying t); try discriminate Hty.
    apply andb_true_iff in Hz. destruct Hz as [Hn Hk]. apply negb_true_iff in Hn. rewrite Hn.
    cbn [zero deq]. apply f64_zero_deq; assumption.
  - cbn [has_type is_zero normal] in *. destruct (underlying t); try discriminate Hty.
    destruct s; [reflexivity|discriminate Hz].
  - cbn [has_type is_zero normal] in *.
    destruct (underlying t) as [| | | | | | | |k| | | | | | | | |]; try discriminate Hty.
    + subst n. apply andb_true_iff in Hty. destruct Hty as [_ Hty]. cbn [negb orb] in Hty.
      destruct s; [reflexivity|discriminate Hty].
    + apply andb_true_iff in Hty. destruct Hty as [Hty _]. apply andb_true_iff in Hty. destruct Hty as [_ Hlen].
      apply Nat.eqb_eq in Hlen. subst k. rewrite (forallb_zero_rep s Hz) at 2.
      cbn [zero deq]. rewrite bytes_eqb_refl. reflexivity.
  - rewrite has_type_list in Hty. rewrite is_zero_list in Hz. rewrite normal_list.
    destruct (underlying t) as [| | | | | | | | |k e|e| | | | | | |]; try discriminate Hty.
    + apply andb_true_iff in Hty. destruct Hty as [Hty Hall]. apply andb_true_iff in Hty. destruct Hty as [_ Hlen].
      apply Nat.eqb_eq in Hlen. subst k. cbn [zero]. rewrite deq_glist. cbn [Bool.eqb orb andb].
      induction IH as [|x l Hx _ IHl]; [reflexivity|].
      rewrite typed_list_cons in Hall. rewrite all_zero_cons in Hz.
      apply andb_true_iff in Hall. destruct Hall as [Htx Hall]. apply andb_true_iff in Hz. destruct Hz as [Hzx Hz].
      cbn [length repeat map]. rewrite deq_list_cons, (Hx e Htx Hzx), (IHl Hall Hz). reflexivity.
    + subst n. apply andb_true_iff in Hty. destruct Hty as [Hty _]. cbn [negb orb] in Hty.
      destruct l; [reflexivity|discriminate Hty].
  - cbn [has_type is_zero normal] in *. destruct (underlying t); try discriminate Hty. subst n.
    apply andb_true_iff in Hty. destruct Hty as [Hty _]. cbn [negb orb] in Hty.
    destruct es; [reflexivity|discriminate Hty].
  - rewrite has_type_struct in Hty. rewrite is_zero_struct in Hz. rewrite normal_struct.
    destruct (underlying t) as [| | | | | | | | | | | |fs| | | | |]; try discriminate Hty.
    cbn [zero]. rewrite deq_gstruct. revert fs Hty Hz.
    induction IH as [|x l Hx _ IHl]; intros [|fd fs] Hty Hz; try discriminate Hty; [reflexivity|].
    rewrite typed_fields_cons in Hty. rewrite fields_zero_cons in Hz.
    apply andb_true_iff in Hty. destruct Hty as [Htx Hty]. apply andb_true_iff in Hz. destruct Hz as [Hzx Hz].
    cbn [map]. rewrite nfields_cons, deq_list_cons, (IHl fs Hty Hz), andb_true_r.
    destruct (fexported fd); [apply Hx; assumption|apply deq_refl].
  - cbn [has_type is_zero normal] in *. destruct (underlying t); try discriminate Hty. reflexivity.
  - discriminate Hz.
  - cbn [has_type is_zero normal] in *. destruct d as [[t' x]|]; [discriminate Hz|].
    destruct (underlying t); try discriminate Hty. reflexivity.
  - cbn [has_type is_zero normal] in *. destruct r as [items|]; [discriminate Hz|].
    destruct (underlying t); try discriminate Hty. reflexivity.
  - cbn [has_type is_zero normal] in *. destruct (underlying t); try discriminate Hty.
    apply bytes_eqb_true in Hz. subst e. reflexivity.
Qed.

Lemma empty_slice_deq_normal v t :
  has_type t v = true -> is_slice_kind t = true -> glen v = 0%nat -> deq (zero t) (normal t v) = true.
Proof.
  intros Hty Hk Hl. rewrite zero_underlying. unfold is_slice_kind in Hk.
  destruct v as [b|z|n|b|b|s|n s|n l|n es|l|p|d|r|e]; cbn [glen] in Hl; try discriminate Hl.
  - cbn [has_type normal] in *. destruct (underlying t); try discriminate Hty; try discriminate Hk.
    destruct s; [reflexivity|discriminate Hl].
  - rewrite has_type_list in Hty. rewrite normal_list.
    destruct (underlying t); try discriminate Hty; try discriminate Hk.
    destruct l; [reflexivity|discriminate Hl].
Qed.

Lemma empty_field_deq_normal v t :
  has_type t v = true -> empty_field t v = true -> deq (zero t) (normal t v) = true.
Proof.
  intros Hty He. unfold empty_field in He. apply orb_true_iff in He. destruct He as [Hz|Hs].
  - apply zero_deq_normal; assumption.
  - apply andb_true_iff in Hs. destruct Hs as [Hk Hl]. apply Nat.eqb_eq in Hl.
    apply empty_slice_deq_normal; assumption.
Qed.

(* the value that comes back from the shortened stream is equivalent to the value that comes
   back from the full stream (for either setting of the option) *)
Theorem normal_o_equiv se : forall v t, has_type t v = true -> deq (normal_o se t v) (normal t v) = true.
Proof.
  rewrite normal_o_w.
  induction v as [b|z|n|b|b|s|n s|n l IH|n es|l IH| |x IH|d|r|e] using gval_ind2; intros t Hty;
    try apply deq_refl.
  - rewrite has_type_list in Hty. rewrite normal_w_list, normal_list.
    assert (E : forall e, typed_list e l = true -> deq_list (map (normal_w se e) l) (map (normal e) l) = true).
    { clear Hty. intros e. induction IH as [|x l Hx _ IHl]; intros Hall; [reflexivity|].
      rewrite typed_list_cons in Hall.
      apply andb_true_iff in Hall. destruct Hall as [Htx Hall].
      cbn [map]. rewrite deq_list_cons, (Hx e Htx), (IHl Hall). reflexivity. }
    destruct (underlying t) as [| | | | | | | | |k e|e| | | | | | |]; try discriminate Hty;
      apply andb_true_iff in Hty; destruct Hty as [_ Hall]; rewrite deq_glist, (E _ Hall), eqb_reflx; reflexivity.
  - rewrite has_type_struct in Hty. rewrite normal_w_struct, normal_struct.
    destruct (underlying t) as [| | | | | | | | | | | |fs| | | | |]; try discriminate Hty.
    rewrite deq_gstruct. revert fs Hty.
    induction IH as [|x l Hx _ IHl]; intros [|fd fs] Hty; try discriminate Hty; [reflexivity|].
    rewrite typed_fields_cons in Hty.
    apply andb_true_iff in Hty. destruct Hty as [Htx Hty].
    rewrite nfields_cons, nfields_w_cons, deq_list_cons, (IHl fs Hty), andb_true_r.
    unfold emitted. destruct (fexported fd); cbn [andb]; [|apply deq_refl].
    destruct (se && _) eqn:Esk; cbn [negb].
    + apply andb_true_iff in Esk. destruct Esk as [_ Hem]. apply empty_field_deq_normal; assumption.
    + apply Hx, Htx.
  - cbn [has_type] in Hty. cbn [normal_w normal].
    destruct (underlying t); try discriminate Hty. cbn [deq]. apply IH, Hty.
Qed.

Corollary normal_se_equiv t v : has_type t v = true -> deq (normal_se t v) (normal t v) = true.
Proof. apply normal_o_equiv. Qed.

Theorem normal_o_false : forall v t, normal_o false t v = normal t v.
Proof. exact normal_w_false. Qed.

Theorem skip_empty_roundtrip_fuel pf o R t v ts rest f :
  wf_ty t = true -> simple_ty t = true ->
  has_type t v = true -> no_ptr_to_nil v = true ->
  marshal se_opts t v = Ok ts -> (2 * vsize v < f)%nat ->
  unm pf f o R t (zero t) (ts ++ rest) = Ok (normal_se t v, rest) /\
  deq (normal_se t v) (normal t v) = true.
Proof.
  intros Hwf Hs Ht Hn Hm Hf. split; [|apply normal_se_equiv, Ht].
  exact (roundtrip_opts_fuel pf se_opts o R t v ts rest f Hwf Hs Ht Hn Hm Hf).
Qed.

Theorem skip_empty_roundtrip pf o R t v ts rest :
  wf_ty t = true -> simple_ty t = true ->
  has_type t v = true -> no_ptr_to_nil v = true ->
  marshal se_opts t v = Ok ts ->
  exists f v', unm pf f o R t (zero t) (ts ++ rest) = Ok (v', rest) /\
               v' = normal_se t v /\ deq v' (normal t v) = true.
Proof.
  intros Hwf Hs Ht Hn Hm. exists (S (2 * vsize v)), (normal_se t v).
  destruct (skip_empty_roundtrip_fuel pf o R t v ts rest (S (2 * vsize v)) Hwf Hs Ht Hn Hm ltac:(lia)) as [H1 H2].
  repeat split; assumption.
Qed.

Corollary skip_empty_roundtrip_unique pf o R t v ts rest f r :
  wf_ty t = true -> simple_ty t = true ->
  has_type t v = true -> no_ptr_to_nil v = true ->
  marshal se_opts t v = Ok ts ->
  unm pf f o R t (zero t) (ts ++ rest) = r -> r <> OutOfFuel -> r = Ok (normal_se t v, rest).
Proof.
  intros Hwf Hs Ht Hn Hm Hr Hno.
  destruct (skip_empty_roundtrip_fuel pf o R t v ts rest (S (2 * vsize v)) Hwf Hs Ht Hn Hm ltac:(lia)) as [H1 _].
  rewrite <- Hr, <- H1. apply unm_fuel_agree; congruence.
Qed.

Theorem skip_empty_roundtrip_opts pf mo o R t v ts rest :
  skip_empty mo = true ->
  wf_ty t = true -> simple_ty t = true ->
  has_type t v = true -> no_ptr_to_nil v = true ->
  marshal mo t v = Ok ts ->
  exists f, unm pf f o R t (zero t) (ts ++ rest) = Ok (normal_se t v, rest).
Proof.
  intros Hse Hwf Hs Ht Hn Hm. exists (S (2 * vsize v)). unfold normal_se. rewrite <- Hse.
  apply (roundtrip_opts_fuel pf mo o R t v ts rest); try assumption. lia.
Qed.

Definition negz64 : N := 9223372036854775808.   (* -0.0 as a float64: 0x8000000000000000 *)
Definition negz32 : N := 2147483648.            (* -0.0 as a float32: 0x80000000 *)

Example deq_cases :
  deq (GF64 0) (GF64 negz64) = true /\ deq (GF32 negz32) (GF32 0) = true /\
  deq (GF64 f64_nan_bits) (GF64 (f64_nan_bits + 1)) = true /\
  deq (GList true []) (GList false []) = true /\ deq (GBytes true []) (GBytes false []) = true /\
  deq (GMap false []) (GMap true []) = true /\
  deq (GF64 0) (GF64 1) = false /\ deq (GInt 0) (GInt 1) = false /\
  deq (GList false [GInt 1]) (GList false []) = false /\ deq (GList false []) (GList false [GInt 1]) = false /\
  deq (GPtr None) (GPtr (Some (GInt 0))) = false /\ deq (GStr []) (GStr [0]) = false /\
  deq (GStruct [GInt 0]) (GStruct [GInt 0; GInt 0]) = false.
Proof. repeat split; vm_compute; reflexivity. Qed.

(* type S struct { A int; B []bool; C float64; D struct{ X int32; Y []string }; E string } *)
Definition Ex5Inner : ty := TStruct [([88], true, TInt W32); ([89], true, TSlice TString)].
Definition Ex5fs : list field :=
  [([65], true, TInt WNat); ([66], true, TSlice TBool); ([67], true, TF64); ([68], true, Ex5Inner); ([69], true, TString)].
Definition Ex5 : ty := TStruct Ex5fs.
(* S{A: 0, B: []bool{}, C: -0.0, D: {0, nil}, E: "hi"} *)
Definition ex5_vals : list gval :=
  [GInt 0; GList false []; GF64 negz64; GStruct [GInt 0; GList true []]; GStr [104; 105]].
Definition ex5_v : gval := GStruct ex5_vals.

Example ex5_hyps :
  wf_ty Ex5 = true /\ simple_ty Ex5 = true /\ has_type Ex5 ex5_v = true /\ no_ptr_to_nil ex5_v = true.
Proof. repeat split; vm_compute; reflexivity. Qed.

Example ex5_kept : kept_fields se_opts Ex5fs ex5_vals = [(([69], true, TString), GStr [104; 105])].
Proof. vm_compute. reflexivity. Qed.

Example ex5_stream :
  marshal se_opts Ex5 ex5_v =
  Ok [T KObject VNone; T KString (VStr [69]); T KString (VStr [104; 105]); T KObjectEnd VNone].
Proof. vm_compute. reflexivity. Qed.

Example ex5_stream_noskip :
  marshal default_opts Ex5 ex5_v =
  Ok [T KObject VNone;
      T KString (VStr [65]); T KInt (VI WNat 0);
      T KString (VStr [66]); T KArray VNone; T KArrayEnd VNone;
      T KString (VStr [67]); T KFloat64 (VF64 negz64);
      T KString (VStr [68]); T KObject VNone;
        T KString (VStr [88]); T KInt32 (VI W32 0);
        T KString (VStr [89]); T KArray VNone; T KArrayEnd VNone; T KObjectEnd VNone;
      T KString (VStr [69]); T KString (VStr [104; 105]);
      T KObjectEnd VNone].
Proof. vm_compute. reflexivity. Qed.

(* what comes back: -0.0 has become +0.0, the empty non-nil slice is nil *)
Example ex5_normal_se :
  normal_se Ex5 ex5_v = GStruct [GInt 0; GList true []; GF64 0; GStruct [GInt 0; GList true []]; GStr [104; 105]].
Proof. vm_compute. reflexivity. Qed.

(* from the full stream -0.0 comes back as -0.0: the two results differ, and are equivalent *)
Example ex5_normal :
  normal Ex5 ex5_v = GStruct [GInt 0; GList true []; GF64 negz64; GStruct [GInt 0; GList true []]; GStr [104; 105]] /\
  normal_se Ex5 ex5_v <> normal Ex5 ex5_v /\
  deq (normal_se Ex5 ex5_v) (normal Ex5 ex5_v) = true.
Proof. split; [vm_compute; reflexivity|]. split; [vm_compute; discriminate|vm_compute; reflexivity]. Qed.

Example ex5_run :
  unm (fun _ _ => None) 20 (Opts false true false) [] Ex5 (zero Ex5)
      ([T KObject VNone; T KString (VStr [69]); T KString (VStr [104; 105]); T KObjectEnd VNone] ++ [T KBool (VBool true)])
  = Ok (GStruct [GInt 0; GList true []; GF64 0; GStruct [GInt 0; GList true []]; GStr [104; 105]], [T KBool (VBool true)]).
Proof. vm_compute. reflexivity. Qed.

Example ex5_thm pf o R rest :
  exists f v',
    unm pf f o R Ex5 (zero Ex5)
        ([T KObject VNone; T KString (VStr [69]); T KString (VStr [104; 105]); T KObjectEnd VNone] ++ rest) = Ok (v', rest) /\
    v' = GStruct [GInt 0; GList true []; GF64 0; GStruct [GInt 0; GList true []]; GStr [104; 105]] /\
    deq v' (normal Ex5 ex5_v) = true.
Proof.
  destruct ex5_hyps as (H1 & H2 & H3 & H4).
  destruct (skip_empty_roundtrip pf o R Ex5 ex5_v _ rest H1 H2 H3 H4 ex5_stream) as (f & v' & Hu & Hv & Hd).
  exists f, v'. rewrite <- ex5_normal_se, <- Hv. repeat split; assumption.
Qed.

(* a deeper value: the option applies inside slices, pointers, arrays and registered named structs.
   type I struct { A int8; B float64; c string }  (registered)
   type O struct { A int; B []bool; C float64; D I; E string; F []byte; G [2]float32; H []*I; J *I;
                   K [2]byte; L time.Time; M **bool } *)
Definition ExI : ty := TNamed [73] true [] (TStruct [([65], true, TInt W8); ([66], true, TF64); ([99], false, TString)]).
Definition ExOfs : list field :=
  [([65], true, TInt WNat); ([66], true, TSlice TBool); ([67], true, TF64); ([68], true, ExI);
   ([69], true, TString); ([70], true, TBytes); ([71], true, TArray 2 TF32); ([72], true, TSlice (TPtr ExI));
   ([74], true, TPtr ExI); ([75], true, TByteArray 2); ([76], true, TTime); ([77], true, TPtr (TPtr TBool))].
Definition ExO : ty := TStruct ExOfs.
Definition exO_vals : list gval :=
  [GInt 0; GList false []; GF64 negz64; GStruct [GInt 0; GF64 negz64; GStr []];
   GStr [104; 105]; GBytes false []; GList false [GF32 negz32; GF32 0];
   GList false [GPtr (Some (GStruct [GInt 0; GF64 negz64; GStr [1]])); GPtr None; GPtr (Some (GStruct [GInt 3; GF64 0; GStr []]))];
   GPtr (Some (GStruct [GInt 0; GF64 0; GStr []])); GBytes false [0; 0]; GTime zero_time; GPtr None].
Definition exO_v : gval := GStruct exO_vals.

Example exO_hyps :
  wf_ty ExO = true /\ simple_ty ExO = true /\ has_type ExO exO_v = true /\ no_ptr_to_nil exO_v = true.
Proof. repeat split; vm_compute; reflexivity. Qed.

(* kept: E, H (non-empty slice) and J (non-nil pointer); omitted: the zero int, the empty slice, -0.0, the
   all-zero nested struct, the empty []byte, the array of zeros (one of them -0.0), the zero byte array,
   the zero time, the nil pointer.  Inside H the first element's struct has only an unexported non-zero
   field, so it is emitted as an empty object; the third keeps its field A only *)
Definition exO_ts : list token :=
  [T KObject VNone;
   T KString (VStr [69]); T KString (VStr [104; 105]);
   T KString (VStr [72]); T KArray VNone;
     T KTypeName (VStr [73]); T KObject VNone; T KObjectEnd VNone;
     T KNil VNone;
     T KTypeName (VStr [73]); T KObject VNone; T KString (VStr [65]); T KInt8 (VI W8 3); T KObjectEnd VNone;
   T KArrayEnd VNone;
   T KString (VStr [74]); T KTypeName (VStr [73]); T KObject VNone; T KObjectEnd VNone;
   T KObjectEnd VNone].

Example exO_stream : marshal se_opts ExO exO_v = Ok exO_ts.
Proof. vm_compute. reflexivity. Qed.

Example exO_kept : map (fun p => fname (fst p)) (kept_fields se_opts ExOfs exO_vals) = [[69]; [72]; [74]].
Proof. vm_compute. reflexivity. Qed.

Example exO_normal_se :
  normal_se ExO exO_v =
  GStruct [GInt 0; GList true []; GF64 0; GStruct [GInt 0; GF64 0; GStr []];
           GStr [104; 105]; GBytes true []; GList false [GF32 0; GF32 0];
           GList false [GPtr (Some (GStruct [GInt 0; GF64 0; GStr []])); GPtr None; GPtr (Some (GStruct [GInt 3; GF64 0; GStr []]))];
           GPtr (Some (GStruct [GInt 0; GF64 0; GStr []])); GBytes false [0; 0]; GTime zero_time; GPtr None].
Proof. vm_compute. reflexivity. Qed.

Example exO_deq :
  normal_se ExO exO_v <> normal ExO exO_v /\ deq (normal_se ExO exO_v) (normal ExO exO_v) = true.
Proof. split; [vm_compute; discriminate|vm_compute; reflexivity]. Qed.

Example exO_run :
  unm (fun _ _ => None) 60 (Opts false true false) [] ExO (zero ExO) (exO_ts ++ [T KBool (VBool true)])
  = Ok (normal_se ExO exO_v, [T KBool (VBool true)]).
Proof. vm_compute. reflexivity. Qed.

Example exO_thm pf o R rest :
  exists f v', unm pf f o R ExO (zero ExO) (exO_ts ++ rest) = Ok (v', rest) /\
               v' = normal_se ExO exO_v /\ deq v' (normal ExO exO_v) = true.
Proof.
  destruct exO_hyps as (H1 & H2 & H3 & H4).
  exact (skip_empty_roundtrip pf o R ExO exO_v exO_ts rest H1 H2 H3 H4 exO_stream).
Qed.

(* the edge of the clause: the theorem is about a ZERO target.  An omitted field is left untouched,
   so a target that already holds data keeps it where the writer had a zero: here the writer's A = 0,
   C = -0.0 are not transported and the reader's A = 7, C = 1.0 survive *)
Example skip_empty_merge_edge :
  unm (fun _ _ => None) 20 default_opts [] Ex5
      (GStruct [GInt 7; GList true []; GF64 4607182418800017408; GStruct [GInt 0; GList true []]; GStr []])
      [T KObject VNone; T KString (VStr [69]); T KString (VStr [104; 105]); T KObjectEnd VNone]
  = Ok (GStruct [GInt 7; GList true []; GF64 4607182418800017408; GStruct [GInt 0; GList true []]; GStr [104; 105]], []).
Proof. vm_compute. reflexivity. Qed.

Definition SkipEmptyP_main_theorems :=
  (fields_exact_gen, skip_empty_fields_exact, skip_empty_fields_exact_opts, skip_empty_fields_exact_ok,
   noskip_all_exported_fields, kept_fields_spec, fields_stream_ok,
   roundtrip_all_o, roundtrip_opts_fuel,
   skip_empty_roundtrip_fuel, skip_empty_roundtrip, skip_empty_roundtrip_unique, skip_empty_roundtrip_opts,
   deq_refl, ty_eqb_refl, zero_deq_normal, empty_field_deq_normal, normal_o_equiv, normal_se_equiv, normal_o_false,
   deq_cases, ex5_hyps, ex5_kept, ex5_stream, ex5_stream_noskip, ex5_normal_se, ex5_normal, ex5_run, ex5_thm,
   exO_hyps, exO_stream, exO_kept, exO_normal_se, exO_deq, exO_run, exO_thm, skip_empty_merge_edge).
Print Assumptions SkipEmptyP_main_theorems.
