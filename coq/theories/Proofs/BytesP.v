(* Proofs/BytesP.v — facts about Base/Bytes.v: lengths, equality and order of byte lists,
   little-endian images, two's complement, uvarint, length prefix. *)
From Coq Require Import List NArith ZArith Bool Lia ZifyBool ZifyNat ZifyN.
From SbModel Require Import Base.Bytes Base.Tokens Spec.WireGrammar Spec.DecodeGrammar.
Import ListNotations.
Local Open Scope N_scope.

Lemma Forall_mp {A} (P Q : A -> Prop) l : Forall (fun x => P x -> Q x) l -> Forall P l -> Forall Q l.
Proof. intros H HP. rewrite Forall_forall in *. intros x Hx. apply (H x Hx), (HP x Hx). Qed.

Lemma lenN_nil : lenN [] = 0.
Proof. reflexivity. Qed.

Lemma lenN_cons b l : lenN (b :: l) = 1 + lenN l.
Proof. unfold lenN. cbn [length]. rewrite Nat2N.inj_succ. symmetry. apply N.add_1_l. Qed.

Lemma lenN_app a b : lenN (a ++ b) = lenN a + lenN b.
Proof. unfold lenN. rewrite app_length. apply Nat2N.inj_add. Qed.

Lemma lenN_firstn (n : nat) (a : bytes) : (n <= length a)%nat -> lenN (firstn n a) = N.of_nat n.
Proof. intros H. unfold lenN. rewrite firstn_length_le by exact H. reflexivity. Qed.

Lemma lenN_firstn_N step (p : bytes) : lenN (firstn_N step p) = N.min step (lenN p).
Proof. unfold lenN, firstn_N. rewrite firstn_length. lia. Qed.

Lemma lenN_skipn_N step (p : bytes) : lenN (skipn_N step p) = lenN p - N.min step (lenN p).
Proof. unfold lenN, skipn_N. rewrite skipn_length. lia. Qed.

Lemma lenN_min_skipn step (p : bytes) : N.min step (lenN p) + lenN (skipn_N step p) = lenN p.
Proof.
  rewrite <- lenN_firstn_N, <- lenN_app. unfold firstn_N, skipn_N. rewrite firstn_skipn. reflexivity.
Qed.

Lemma wf_bytesb_iff s : wf_bytesb s = true <-> wf_bytes s.
Proof.
  unfold wf_bytesb, wf_bytes. rewrite forallb_forall, Forall_forall.
  split; intros H x Hx; apply N.ltb_lt, H, Hx.
Qed.

Lemma bytes_eqb_eq a : forall b, bytes_eqb a b = true <-> a = b.
Proof.
  induction a as [|x a IH]; intros [|y b]; cbn [bytes_eqb].
  - split; reflexivity.
  - split; discriminate.
  - split; discriminate.
  - rewrite andb_true_iff, N.eqb_eq, IH. split.
    + intros [-> ->]. reflexivity.
    + intros E. inversion E. auto.
Qed.

Lemma bytes_eqb_cmp x : forall y,
  bytes_eqb x y = match bytes_cmp x y with Eq => true | _ => false end.
Proof.
  induction x as [|a x IH]; intros [|b y]; cbn [bytes_eqb bytes_cmp]; try reflexivity.
  rewrite N.eqb_compare. destruct (a ?= b); [apply IH | reflexivity | reflexivity].
Qed.

Lemma pow8_succ (w : nat) : 2 ^ (8 * N.of_nat (S w)) = 256 * 2 ^ (8 * N.of_nat w).
Proof.
  replace (8 * N.of_nat (S w)) with (8 + 8 * N.of_nat w) by lia.
  rewrite N.pow_add_r. reflexivity.
Qed.

Lemma pow8_pos (w : nat) : 0 < 2 ^ (8 * N.of_nat w).
Proof. apply N.neq_0_lt_0. apply N.pow_nonzero. discriminate. Qed.

Lemma pow128_succ (k : nat) : 128 ^ N.of_nat (S k) = 128 * 128 ^ N.of_nat k.
Proof. rewrite Nat2N.inj_succ. apply N.pow_succ_r'. Qed.

Lemma pow128_pos (k : nat) : 0 < 128 ^ N.of_nat k.
Proof. apply N.neq_0_lt_0. apply N.pow_nonzero. discriminate. Qed.

Lemma div128_lt n P : n < 128 * P -> n / 128 < P.
Proof. intros H. apply N.div_lt_upper_bound; [discriminate | exact H]. Qed.

Lemma mod128_lt n : n mod 128 < 128.
Proof. apply N.mod_lt. discriminate. Qed.

Lemma mod256_lt n : n mod 256 < 256.
Proof. apply N.mod_lt. discriminate. Qed.

Lemma divmod128 n : n = 128 * (n / 128) + n mod 128.
Proof. apply N.div_mod. discriminate. Qed.

Lemma divmod256 n : n = 256 * (n / 256) + n mod 256.
Proof. apply N.div_mod. discriminate. Qed.

Lemma lt_56_64 n : n < 2 ^ 56 -> n < 2 ^ 64.
Proof. intros H. apply (N.lt_trans _ _ _ H). reflexivity. Qed.

Lemma le_bytes_length w n : length (le_bytes w n) = w.
Proof.
  revert n. induction w as [|w IH]; intros n; cbn [le_bytes length].
  - reflexivity.
  - rewrite IH. reflexivity.
Qed.

Lemma le_bytes_lenN w n : lenN (le_bytes w n) = N.of_nat w.
Proof. unfold lenN. rewrite le_bytes_length. reflexivity. Qed.

Lemma le_bytes_wf w n : wf_bytes (le_bytes w n).
Proof.
  revert n. induction w as [|w IH]; intros n; cbn [le_bytes].
  - constructor.
  - constructor; [apply mod256_lt | apply IH].
Qed.

Lemma le_val_le_bytes w n : le_val (le_bytes w n) = n mod 2 ^ (8 * N.of_nat w).
Proof.
  revert n. induction w as [|w IH]; intros n; cbn [le_bytes le_val].
  - symmetry. apply N.mod_1_r.
  - rewrite IH, pow8_succ. symmetry. apply N.mod_mul_r.
    + discriminate.
    + apply N.pow_nonzero. discriminate.
Qed.

Lemma le_bytes_le_val bs : wf_bytes bs -> le_bytes (length bs) (le_val bs) = bs.
Proof.
  intros Hwf. induction Hwf as [|b r Hb Hr IH]; cbn [length le_bytes le_val].
  - reflexivity.
  - rewrite (N.mul_comm 256), N.mod_add, N.div_add by discriminate.
    rewrite (N.mod_small b), (N.div_small b), N.add_0_l, IH by exact Hb. reflexivity.
Qed.

Lemma le_val_bound bs : wf_bytes bs -> le_val bs < 2 ^ (8 * N.of_nat (length bs)).
Proof.
  intros Hwf. induction Hwf as [|b r Hb Hr IH]; cbn [length le_val].
  - reflexivity.
  - rewrite pow8_succ. unfold wf_byte in Hb. clear Hr. lia.
Qed.

Lemma le_bytes_image w n : le_image w n (le_bytes w n).
Proof.
  split; [apply le_bytes_length|].
  revert n. induction w as [|w IH]; intros n i Hi.
  - inversion Hi.
  - cbn [le_bytes]. destruct i as [|i]; cbn [nth].
    + unfold le_digit. rewrite N.div_1_r. reflexivity.
    + rewrite IH by (apply Nat.succ_lt_mono; exact Hi). unfold le_digit.
      rewrite Nat2N.inj_succ, N.pow_succ_r', N.div_div.
      * reflexivity.
      * discriminate.
      * apply N.pow_nonzero. discriminate.
Qed.

Lemma le_image_unique w n a b : le_image w n a -> le_image w n b -> a = b.
Proof.
  intros [Hla Ha] [Hlb Hb].
  apply (nth_ext a b 0 0).
  - congruence.
  - intros i Hi. rewrite Hla in Hi. rewrite Ha, Hb by exact Hi. reflexivity.
Qed.

Lemma le_val_app a b : le_val (a ++ b) = le_val a + 2 ^ (8 * N.of_nat (length a)) * le_val b.
Proof.
  induction a as [|x a IH]; cbn [app le_val length].
  - destruct (le_val b); reflexivity.
  - rewrite IH, pow8_succ. lia.
Qed.

Lemma unwrap_wrap (h z : Z) : (- h <= z < h)%Z ->
  (let y := z mod (2 * h) in if y <? h then y else y - 2 * h)%Z = z.
Proof.
  intros Hz. cbv zeta. destruct (Z.ltb_spec z 0) as [Hneg|Hpos].
  - rewrite <- (Z_mod_plus_full z 1), Z.mod_small by lia.
    destruct (Z.ltb_spec (z + 1 * (2 * h)) h); lia.
  - rewrite Z.mod_small by lia. destruct (Z.ltb_spec z h); lia.
Qed.

Lemma wrap_unwrap (h n : Z) : (0 <= n < 2 * h)%Z ->
  ((if n <? h then n else n - 2 * h) mod (2 * h))%Z = n.
Proof.
  intros Hn. destruct (Z.ltb_spec n h) as [Hlt|Hge].
  - apply Z.mod_small. lia.
  - rewrite <- (Z_mod_plus_full _ 1). replace (n - 2 * h + 1 * (2 * h))%Z with n by lia.
    apply Z.mod_small. lia.
Qed.

Lemma zpow8_split (w : nat) : (0 < w)%nat ->
  (2 ^ (8 * Z.of_nat w) = 2 * 2 ^ (8 * Z.of_nat w - 1))%Z.
Proof. intros Hw. rewrite <- Z.pow_succ_r by lia. f_equal. lia. Qed.

Lemma half_double (h : Z) : (2 * h / 2 = h)%Z.
Proof. rewrite Z.mul_comm. apply Z.div_mul. discriminate. Qed.

Lemma npow8_to_Z (w : nat) : Z.of_N (2 ^ (8 * N.of_nat w)) = (2 ^ (8 * Z.of_nat w))%Z.
Proof. rewrite N2Z.inj_pow. f_equal. lia. Qed.

Lemma zpow8_pos (w : nat) : (0 < 2 ^ (8 * Z.of_nat w))%Z.
Proof. apply Z.pow_pos_nonneg; lia. Qed.

Lemma untwos_twos w z : (0 < w)%nat ->
  (- 2 ^ (8 * Z.of_nat w - 1) <= z < 2 ^ (8 * Z.of_nat w - 1))%Z ->
  untwos w (twos w z) = z.
Proof.
  intros Hw Hz. unfold untwos, twos.
  rewrite Z2N.id by (apply Z.mod_pos_bound, zpow8_pos).
  rewrite Z.mod_mod by (apply Z.pow_nonzero; lia).
  rewrite (zpow8_split w Hw), half_double. apply unwrap_wrap. exact Hz.
Qed.

Lemma twos_untwos w n : (0 < w)%nat -> n < 2 ^ (8 * N.of_nat w) ->
  twos w (untwos w n) = n.
Proof.
  intros Hw Hn. unfold untwos, twos.
  apply N2Z.inj_lt in Hn. rewrite npow8_to_Z in Hn.
  rewrite (Z.mod_small (Z.of_N n)) by (split; [apply N2Z.is_nonneg | exact Hn]).
  rewrite (zpow8_split w Hw) in *. rewrite half_double, wrap_unwrap by lia.
  apply N2Z.id.
Qed.

Lemma twos_bound w z : twos w z < 2 ^ (8 * N.of_nat w).
Proof.
  unfold twos. apply N2Z.inj_lt. rewrite npow8_to_Z.
  rewrite Z2N.id; apply Z.mod_pos_bound, zpow8_pos.
Qed.

Lemma put_uvarint_f_spec fuel n : n < 128 ^ N.of_nat (S fuel) ->
  uvarint_of n (put_uvarint_f fuel n).
Proof.
  revert n. induction fuel as [|f IH]; intros n Hn; cbn [put_uvarint_f].
  - rewrite N.mod_small by exact Hn. apply uv_last. exact Hn.
  - destruct (N.ltb_spec n 128) as [Hlt|Hge].
    + apply uv_last. exact Hlt.
    + rewrite N.add_comm. apply uv_more; [exact Hge|].
      apply IH. rewrite pow128_succ in Hn. apply div128_lt. exact Hn.
Qed.

Lemma put_uvarint_spec n : n < 2 ^ 64 -> uvarint_of n (put_uvarint n).
Proof. intros Hn. apply put_uvarint_f_spec. apply (N.lt_trans _ _ _ Hn). reflexivity. Qed.

Lemma uvarint_of_unique n a b : uvarint_of n a -> uvarint_of n b -> a = b.
Proof.
  intros Ha. revert b. induction Ha as [n Hn | n bs Hn Hbs IH]; intros b Hb;
    inversion Hb as [n' Hn' | n' bs' Hn' Hbs']; subst.
  - reflexivity.
  - lia.
  - lia.
  - f_equal. apply IH. exact Hbs'.
Qed.

Lemma put_uvarint_f_wf fuel n : wf_bytes (put_uvarint_f fuel n).
Proof.
  assert (Hmore : forall m, wf_byte (m mod 128 + 128)).
  { intros m. unfold wf_byte. pose proof (mod128_lt m). lia. }
  revert n. induction fuel as [|f IH]; intros n; cbn [put_uvarint_f].
  - constructor; [|constructor]. apply (N.lt_trans _ _ _ (mod128_lt n)). reflexivity.
  - destruct (N.ltb_spec n 128) as [Hlt|Hge].
    + constructor; [|constructor]. apply (N.lt_trans _ _ _ Hlt). reflexivity.
    + constructor; [apply Hmore | apply IH].
Qed.

Lemma put_uvarint_wf n : wf_bytes (put_uvarint n).
Proof. apply put_uvarint_f_wf. Qed.

Lemma put_uvarint_f_len fuel : forall n k, n < 128 ^ N.of_nat (S k) ->
  (1 <= length (put_uvarint_f fuel n) <= S k)%nat.
Proof.
  induction fuel as [|f IH]; intros n k Hn; cbn [put_uvarint_f].
  - clear Hn. cbn [length]. lia.
  - destruct (N.ltb_spec n 128) as [Hlt|Hge]; cbn [length]; [clear Hn; lia|].
    destruct k as [|k]; [change (n < 128) in Hn; lia|].
    rewrite pow128_succ in Hn. apply div128_lt in Hn. specialize (IH _ _ Hn). clear Hn. lia.
Qed.

(* 2^56 = 128^8: the lengths whose uvarint has at most 8 bytes, all that read_len accepts *)
Lemma put_uvarint_len n : n < 2 ^ 56 -> (1 <= length (put_uvarint n) <= 8)%nat.
Proof. intros Hn. apply put_uvarint_f_len. exact Hn. Qed.

Lemma uvarint_of_parse n bs : uvarint_of n bs -> uv_parse bs n.
Proof.
  intros H. induction H as [n Hn | n bs Hn Hbs IH].
  - apply uvp_last. exact Hn.
  - pose proof (uvp_more (128 + n mod 128) bs (n / 128) (N.le_add_r _ _) IH) as H.
    replace (128 + n mod 128 - 128 + 128 * (n / 128)) with n in H; [exact H|].
    rewrite (N.add_comm 128), N.add_sub, N.add_comm. apply divmod128.
Qed.

Lemma uv_parse_put n : n < 2 ^ 64 -> uv_parse (put_uvarint n) n.
Proof. intros Hn. apply uvarint_of_parse, put_uvarint_spec, Hn. Qed.

Lemma uv_parse_bound u v : uv_parse u v -> wf_bytes u -> v < 128 ^ N.of_nat (length u).
Proof.
  intros Hp. induction Hp as [b junk Hb | b r v Hb Hr IH]; intros Hwf; cbn [length]; rewrite pow128_succ.
  - pose proof (pow128_pos (length junk)). lia.
  - apply Forall_cons_iff in Hwf. destruct Hwf as [Hb' Hr']. specialize (IH Hr'). unfold wf_byte in Hb'.
    clear Hr Hr'. lia.
Qed.

(* the accumulator of read_uvarint_f after one continuation byte with payload c *)
Lemma uv_acc x c v s : x + c * 2 ^ s + v * 2 ^ (s + 7) = x + (c + 128 * v) * 2 ^ s.
Proof. rewrite N.pow_add_r. change (2 ^ 7) with 128. ring. Qed.

(* i + length u <= 9: the overflow test, made on the tenth byte only, is not reached *)
Lemma read_uv_parse u v : uv_parse u v -> forall fr i x s,
  (length u <= fr)%nat -> (i + length u <= 9)%nat ->
  read_uvarint_f fr i x s u = UvOk ((x + v * 2 ^ s) mod 2 ^ 64).
Proof.
  intros Hp. induction Hp as [b junk Hb | b r v Hb Hr IH]; intros fr i x s Hfr Hi;
    cbn [length] in *; (destruct fr as [|fr]; [lia|]); cbn [read_uvarint_f].
  - apply N.ltb_lt in Hb. rewrite Hb.
    replace (Nat.eqb i 9) with false by (symmetry; apply Nat.eqb_neq; lia). reflexivity.
  - apply N.ltb_ge in Hb. rewrite Hb, IH, uv_acc by lia. reflexivity.
Qed.

Lemma read_uv_parse_inv fr : forall u i x s res,
  read_uvarint_f fr i x s u = UvOk res ->
  exists v, uv_parse u v /\ res = (x + v * 2 ^ s) mod 2 ^ 64.
Proof.
  induction fr as [|fr IH]; intros u i x s res H; cbn [read_uvarint_f] in H; [discriminate|].
  destruct u as [|b r]; [destruct i; discriminate|].
  destruct (N.ltb_spec b 128) as [Hlt|Hge].
  - destruct (Nat.eqb i 9 && (1 <? b)); [discriminate|].
    injection H as <-. exists b. split; [apply uvp_last; exact Hlt | reflexivity].
  - apply IH in H. destruct H as [v [Hv ->]].
    exists ((b - 128) + 128 * v). split; [apply uvp_more; assumption|].
    rewrite uv_acc. reflexivity.
Qed.

(* with at most 8 well-formed bytes the value stays below 2^64: no wrap-around *)
Lemma uv_parse_small u v : wf_bytes u -> (length u <= 8)%nat -> uv_parse u v ->
  (0 + v * 2 ^ 0) mod 2 ^ 64 = v.
Proof.
  intros Hwf Hlen Hp. rewrite N.mul_1_r, N.add_0_l. apply N.mod_small.
  apply (N.lt_trans _ _ _ (uv_parse_bound u v Hp Hwf)).
  apply N.le_lt_trans with (128 ^ 8); [|reflexivity].
  apply N.pow_le_mono_r; [discriminate | lia].
Qed.

Lemma read_uvarint_parse u v : wf_bytes u -> (length u <= 8)%nat -> uv_parse u v ->
  read_uvarint u = UvOk v.
Proof.
  intros Hwf Hlen Hp. unfold read_uvarint.
  rewrite (read_uv_parse u v Hp), (uv_parse_small u v) by (assumption || lia). reflexivity.
Qed.

Lemma read_uvarint_parse_inv u res : wf_bytes u -> (length u <= 8)%nat ->
  read_uvarint u = UvOk res -> uv_parse u res.
Proof.
  intros Hwf Hlen H. apply read_uv_parse_inv in H. destruct H as [v [Hv ->]].
  rewrite (uv_parse_small u v) by assumption. exact Hv.
Qed.

Lemma read_put_uvarint n : n < 2 ^ 56 -> read_uvarint (put_uvarint n) = UvOk n.
Proof.
  intros Hn. apply read_uvarint_parse.
  - apply put_uvarint_wf.
  - apply put_uvarint_len, Hn.
  - apply uv_parse_put, lt_56_64, Hn.
Qed.

Lemma prefix_of_unique n a b : prefix_of n a -> prefix_of n b -> a = b.
Proof.
  intros Ha Hb.
  inversion Ha as [n1 Hn1 | n1 u1 Hn1 Hu1]; subst;
  inversion Hb as [n2 Hn2 | n2 u2 Hn2 Hu2]; subst.
  - reflexivity.
  - lia.
  - lia.
  - rewrite (uvarint_of_unique n u1 u2 Hu1 Hu2). reflexivity.
Qed.

Example ex_le_roundtrip : le_val (le_bytes 4 305419896) = 305419896 /\ le_bytes 4 305419896 = [120; 86; 52; 18].
Proof. split; reflexivity. Qed.
Example ex_twos : twos 2 (-2) = 65534 /\ untwos 2 65534 = (-2)%Z.
Proof. split; reflexivity. Qed.
Example ex_uvarint : put_uvarint 300 = [172; 2] /\ read_uvarint [172; 2] = UvOk 300.
Proof. split; reflexivity. Qed.
Example ex_uvarint_of : uvarint_of 300 [172; 2].
Proof. apply (put_uvarint_spec 300). reflexivity. Qed.
Example ex_prefix_of : prefix_of 300 [253; 172; 2].
Proof. apply (pf_long 300 [172; 2]); [discriminate | apply ex_uvarint_of]. Qed.

Print Assumptions le_bytes_length.
Print Assumptions le_bytes_wf.
Print Assumptions le_val_le_bytes.
Print Assumptions le_bytes_le_val.
Print Assumptions le_val_bound.
Print Assumptions le_bytes_image.
Print Assumptions le_image_unique.
Print Assumptions untwos_twos.
Print Assumptions twos_untwos.
Print Assumptions twos_bound.
Print Assumptions put_uvarint_spec.
Print Assumptions uvarint_of_unique.
Print Assumptions put_uvarint_wf.
Print Assumptions put_uvarint_len.
Print Assumptions read_put_uvarint.
Print Assumptions prefix_of_unique.
