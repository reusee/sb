(* Proofs/CodecP.v — the token codec.  In the order of the file:
   takeN, the classes of kind bytes, decode_step and read_len case by case;
   C04, one step: step_complete, accepts_prefix_free, step_cases, step_sound, step_err_offset, decode_total;
   C02: encode_accepts, step_exact, decode_encode, encoded_len_correct, writes_concat, stream_writes_concat;
   C03: encode_layout, encode_layout_stream, layout_token_unique;
   C04, the whole decode: decode_exact; truncation (step_truncated, no_silent_truncation); the length
     limit (limit_boundary_reject, limit_boundary_accept and their _bytes twins);
   C15: the reader fault in the plain decoder (fault_never_done, fault_tokens_same, fail_offset_in_range),
     the failing writer (write_until_spec, writer_fault_prefix);
   the segmenting decoder used by Compare (segments_spec, fail_offset_in_range_cmp) and its agreement with
     the plain one (cmp_rel; C04: decode_cmp_total; C15: fault_never_done_cmp;
     C04: cmp_same_language, cmp_same_class, cmp_desegment);
   examples: the theorems applied to a sample stream ex_ts and to single tokens, and some values
     computed (ex_encoded_len, ex_cmp_segments, ex_write_until). *)
From Coq Require Import List NArith ZArith Bool Lia ZifyBool ZifyNat ZifyN.
From SbModel Require Import Base.Bytes Base.Tokens Model.Codec Spec.WireGrammar Spec.DecodeGrammar.
From SbModel Require Import Proofs.BytesP.
Import ListNotations.
Local Open Scope N_scope.

Lemma takeN_app a r : takeN (lenN a) (a ++ r) = Some (a, r).
Proof.
  unfold takeN. rewrite lenN_app.
  replace (lenN a <=? lenN a + lenN r) with true by (symmetry; apply N.leb_le, N.le_add_r).
  unfold firstn_N, skipn_N, lenN. rewrite Nat2N.id.
  rewrite firstn_app, skipn_app, firstn_all, skipn_all, Nat.sub_diag. cbn [firstn skipn app].
  rewrite app_nil_r. reflexivity.
Qed.

Lemma takeN_app' n a r : lenN a = n -> takeN n (a ++ r) = Some (a, r).
Proof. intros <-. apply takeN_app. Qed.

Lemma takeN_some n bs p r : takeN n bs = Some (p, r) -> bs = p ++ r /\ lenN p = n.
Proof.
  unfold takeN. destruct (N.leb_spec n (lenN bs)) as [Hle|]; [|discriminate].
  intros H. injection H as <- <-. unfold firstn_N, skipn_N. split.
  - symmetry. apply firstn_skipn.
  - unfold lenN in *. rewrite firstn_length_le by lia. apply N2Nat.id.
Qed.

Lemma takeN_none n bs : takeN n bs = None -> lenN bs < n.
Proof. unfold takeN. destruct (N.leb_spec n (lenN bs)); [discriminate | trivial]. Qed.

Lemma takeN_short n bs : lenN bs < n -> takeN n bs = None.
Proof. intros H. unfold takeN. apply N.leb_gt in H. rewrite H. reflexivity. Qed.

Lemma takeN_cut n (m : nat) a : lenN a = n -> (m < length a)%nat -> takeN n (firstn m a) = None.
Proof.
  intros Hn Hm. apply takeN_short. rewrite lenN_firstn by lia. unfold lenN in Hn. clear - Hn Hm. lia.
Qed.

Lemma takeN_split l len seg r : l <= len -> lenN seg = l ->
  takeN len (seg ++ r) =
  match takeN (len - l) r with Some (p, r') => Some (seg ++ p, r') | None => None end.
Proof.
  intros Hle Hseg. destruct (takeN (len - l) r) as [[p r']|] eqn:Et.
  - apply takeN_some in Et. destruct Et as [-> Hp]. rewrite app_assoc. apply takeN_app'.
    rewrite lenN_app, Hseg, Hp. lia.
  - apply takeN_short. apply takeN_none in Et. rewrite lenN_app, Hseg. lia.
Qed.

Lemma existsb_eqb_In k l : existsb (N.eqb k) l = true -> In k l.
Proof.
  intros H. apply existsb_exists in H. destruct H as [x [Hin Heq]].
  apply N.eqb_eq in Heq. subst x. exact Hin.
Qed.

Lemma str_kind_In k : is_str_kind k = true -> In k [KString; KTypeName; KLiteral].
Proof.
  unfold is_str_kind. intros H.
  apply orb_true_iff in H. destruct H as [H|H].
  - apply orb_true_iff in H. destruct H as [H|H]; apply N.eqb_eq in H; subst; cbn [In]; auto.
  - apply N.eqb_eq in H. subst. cbn [In]. auto.
Qed.

Lemma bytes_kind_In k : is_bytes_kind k = true -> In k [KBytes; KRef].
Proof.
  unfold is_bytes_kind. intros H.
  apply orb_true_iff in H. destruct H as [H|H]; apply N.eqb_eq in H; subst; cbn [In]; auto.
Qed.

(* H : In k table.  Settles a goal about k by evaluating it at each entry of the table. *)
Ltac each_kind H :=
  cbn [In] in H;
  repeat (destruct H as [H|H]; [subst; vm_compute; auto|]);
  try contradiction.

Lemma valueless_facts k : is_valueless_kind k = true ->
  fixed_kind k = None /\ is_str_kind k = false /\ is_bytes_kind k = false.
Proof. intros H. apply existsb_eqb_In in H. each_kind H. Qed.

(* The string-like and bytes-like kinds are decoded by the same code; strk tells
   which of the two tables a kind is in, as it does in read_len and segments. *)
Definition var_kind (strk : bool) (k : N) : Prop :=
  if strk then is_str_kind k = true else is_bytes_kind k = true.
Definition var_val (strk : bool) (pl : bytes) : tval := if strk then VStr pl else VBytes pl.

Lemma var_kind_facts strk k : var_kind strk k ->
  fixed_kind k = None /\ is_str_kind k = strk /\ is_bytes_kind k = negb strk /\
  is_valueless_kind k = false.
Proof.
  destruct strk; intros H; [apply str_kind_In in H | apply bytes_kind_In in H]; each_kind H.
Qed.

(* the dispatch of decode_step on the kind byte *)
Inductive kind_class (k : N) : Prop :=
| kc_fixed n mk : fixed_kind k = Some (n, mk) -> kind_class k
| kc_var strk : var_kind strk k -> kind_class k
| kc_valueless : is_valueless_kind k = true -> kind_class k
| kc_bad : fixed_kind k = None -> is_str_kind k || is_bytes_kind k = false ->
           is_valueless_kind k = false -> kind_class k.

Lemma kind_classify k : kind_class k.
Proof.
  destruct (fixed_kind k) as [[n mk]|] eqn:Ef; [exact (kc_fixed k n mk Ef)|].
  destruct (is_str_kind k) eqn:Es; [exact (kc_var k true Es)|].
  destruct (is_bytes_kind k) eqn:Eb; [exact (kc_var k false Eb)|].
  destruct (is_valueless_kind k) eqn:Ev; [exact (kc_valueless k Ev)|].
  apply kc_bad; [exact Ef | rewrite Es, Eb; reflexivity | exact Ev].
Qed.

Lemma step_nil maxlen fault off :
  decode_step maxlen fault [] off = if fault then SErr EFault off else SEnd.
Proof. reflexivity. Qed.

Lemma step_fixed maxlen fault k r off n mk : fixed_kind k = Some (n, mk) ->
  decode_step maxlen fault (k :: r) off =
  match takeN n r with
  | Some (img, r') => STok (T k (mk (le_val img))) r' (off + 1 + n)
  | None => SErr (end_err fault) (off + 1)
  end.
Proof. intros H. unfold decode_step. rewrite H. reflexivity. Qed.

Lemma step_var strk maxlen fault k r off : var_kind strk k ->
  decode_step maxlen fault (k :: r) off =
  match read_len maxlen fault strk r (off + 1) with
  | LenErr e o => SErr e o
  | LenOk len r' o =>
      match takeN len r' with
      | Some (pl, r'') => STok (T k (var_val strk pl)) r'' (o + len)
      | None => SErr (end_err fault) o
      end
  end.
Proof.
  intros H. destruct (var_kind_facts strk k H) as (Hf & Hs & Hb & _).
  unfold decode_step. rewrite Hf, Hs, Hb. destruct strk; reflexivity.
Qed.

Lemma step_valueless maxlen fault k r off : is_valueless_kind k = true ->
  decode_step maxlen fault (k :: r) off = STok (T k VNone) r (off + 1).
Proof.
  intros H. destruct (valueless_facts k H) as (H1 & H2 & H3).
  unfold decode_step. rewrite H1, H2, H3, H. reflexivity.
Qed.

Lemma step_bad maxlen fault k r off : fixed_kind k = None ->
  is_str_kind k || is_bytes_kind k = false -> is_valueless_kind k = false ->
  decode_step maxlen fault (k :: r) off = SErr EBadKind (off + 1).
Proof. intros H1 H2 H3. unfold decode_step. rewrite H1, H2, H3. reflexivity. Qed.

Definition toolong (strk : bool) : eclass := if strk then EStrTooLong else EBytesTooLong.

Lemma read_len_nil maxlen fault strk off :
  read_len maxlen fault strk [] off = LenErr (end_err fault) off.
Proof. reflexivity. Qed.

Lemma read_len_short maxlen fault strk b r off : b < 128 ->
  read_len maxlen fault strk (b :: r) off =
  if maxlen <? b then LenErr (toolong strk) (off + 1) else LenOk b r (off + 1).
Proof. intros H. apply N.ltb_lt in H. unfold read_len. rewrite H. reflexivity. Qed.

Lemma read_len_long maxlen fault strk b r off : 128 <= b ->
  read_len maxlen fault strk (b :: r) off =
  if 8 <? compl8 b then LenErr (toolong strk) (off + 1)
  else match takeN (compl8 b) r with
       | None => LenErr (end_err fault) (off + 1)
       | Some (u, r') =>
           match read_uvarint u with
           | UvOk len => if maxlen <? len then LenErr (toolong strk) (off + 1 + compl8 b)
                         else LenOk len r' (off + 1 + compl8 b)
           | _ => LenErr EEnd (off + 1 + compl8 b)
           end
       end.
Proof. intros H. apply N.ltb_ge in H. unfold read_len. rewrite H. reflexivity. Qed.

(* On a length field of the grammar (for whatever limit M it was formed under),
   read_len consumes exactly the field; only the final comparison looks at maxlen. *)
Lemma read_len_field M maxlen fault strk len lf r off : len_field M len lf ->
  read_len maxlen fault strk (lf ++ r) off =
  if maxlen <? len then LenErr (toolong strk) (off + lenN lf) else LenOk len r (off + lenN lf).
Proof.
  intros H. destruct H as [b Hb _ | l u len Hl Hu Hwf Hp _]; cbn [app].
  - apply read_len_short. exact Hb.
  - rewrite read_len_long by lia.
    replace (compl8 (255 - l)) with l by (unfold compl8; lia).
    apply N.ltb_ge in Hl. rewrite Hl, (takeN_app' l u r Hu). apply N.ltb_ge in Hl.
    assert (Hlen : (length u <= 8)%nat) by (unfold lenN in Hu; lia).
    rewrite (read_uvarint_parse u len Hwf Hlen Hp), lenN_cons, Hu, N.add_assoc. reflexivity.
Qed.

Lemma read_len_complete maxlen fault strk len lf r off : len_field maxlen len lf ->
  read_len maxlen fault strk (lf ++ r) off = LenOk len r (off + lenN lf).
Proof.
  intros H. rewrite (read_len_field maxlen _ _ _ _ _ _ _ H).
  replace (maxlen <? len) with false; [reflexivity|].
  symmetry. apply N.ltb_ge. destruct H; assumption.
Qed.

(* The grammar's len_field asks for well-formed bytes, so only that part needs them; the shape does not. *)
Lemma read_len_cases maxlen fault strk bs off :
  match read_len maxlen fault strk bs off with
  | LenOk len r o => exists lf, bs = lf ++ r /\ o = off + lenN lf /\
                                (wf_bytes lf -> len_field maxlen len lf)
  | LenErr e o => off <= o <= off + lenN bs
  end.
Proof.
  destruct bs as [|b bs].
  - rewrite read_len_nil, lenN_nil. lia.
  - rewrite lenN_cons. destruct (N.ltb_spec b 128) as [Hb|Hb].
    + rewrite read_len_short by exact Hb. destruct (N.ltb_spec maxlen b) as [Hm|Hm]; [lia|].
      exists [b]. split; [reflexivity|]. split; [reflexivity|].
      intros _. apply lf_short; assumption.
    + rewrite read_len_long by exact Hb.
      destruct (N.ltb_spec 8 (compl8 b)) as [H8|H8]; [lia|].
      destruct (takeN (compl8 b) bs) as [[u r']|] eqn:Et; [|lia].
      apply takeN_some in Et. destruct Et as [-> Hu]. rewrite lenN_app, Hu.
      destruct (read_uvarint u) as [v| | |] eqn:Eu; try lia.
      destruct (N.ltb_spec maxlen v) as [Hm|Hm]; [lia|].
      exists (b :: u). split; [reflexivity|]. split; [rewrite lenN_cons, Hu; lia|].
      intros Hwf. apply Forall_cons_iff in Hwf. destruct Hwf as [Hwb Hwu].
      assert (Hlen : (length u <= 8)%nat) by (unfold lenN in Hu; lia).
      replace b with (255 - compl8 b) by (unfold compl8, wf_byte in *; lia).
      apply lf_long; try assumption. apply read_uvarint_parse_inv; assumption.
Qed.

Lemma step_complete_var strk maxlen fault k lf len pl rest off :
  var_kind strk k -> len_field maxlen len lf -> lenN pl = len ->
  decode_step maxlen fault ((k :: lf ++ pl) ++ rest) off =
  STok (T k (var_val strk pl)) rest (off + lenN (k :: lf ++ pl)).
Proof.
  intros Hk Hlf Hpl. cbn [app]. rewrite <- app_assoc, (step_var strk) by exact Hk.
  rewrite (read_len_complete _ _ _ _ _ _ _ Hlf), (takeN_app' _ _ _ Hpl).
  rewrite lenN_cons, lenN_app, Hpl, !N.add_assoc. reflexivity.
Qed.

Theorem step_complete maxlen fault t piece rest off : accepts maxlen t piece ->
  decode_step maxlen fault (piece ++ rest) off = STok t rest (off + lenN piece).
Proof.
  intros H. destruct H as [k Hk | k n mk img Hf Hl Hwf | k lf len pl Hk Hlf Hpl | k lf len pl Hk Hlf Hpl].
  - apply step_valueless. exact Hk.
  - cbn [app]. rewrite (step_fixed _ _ _ _ _ _ _ Hf), (takeN_app' _ _ _ Hl).
    rewrite lenN_cons, Hl, N.add_assoc. reflexivity.
  - exact (step_complete_var true _ _ _ _ _ _ _ _ Hk Hlf Hpl).
  - exact (step_complete_var false _ _ _ _ _ _ _ _ Hk Hlf Hpl).
Qed.

Theorem accepts_prefix_free maxlen t1 t2 p1 p2 r1 r2 :
  accepts maxlen t1 p1 -> accepts maxlen t2 p2 -> p1 ++ r1 = p2 ++ r2 -> p1 = p2 /\ t1 = t2.
Proof.
  intros H1 H2 Heq.
  pose proof (step_complete maxlen false t1 p1 r1 0 H1) as S1.
  pose proof (step_complete maxlen false t2 p2 r2 0 H2) as S2.
  rewrite Heq in S1. rewrite S1 in S2. injection S2 as -> -> _.
  split; [|reflexivity]. apply app_inv_tail in Heq. exact Heq.
Qed.

Lemma acc_var maxlen strk k lf pl : var_kind strk k -> len_field maxlen (lenN pl) lf ->
  accepts maxlen (T k (var_val strk pl)) (k :: lf ++ pl).
Proof.
  intros Hk Hlf.
  destruct strk; [exact (acc_str maxlen k lf _ pl Hk Hlf eq_refl) | exact (acc_bytes maxlen k lf _ pl Hk Hlf eq_refl)].
Qed.

Lemma step_cases maxlen fault bs off :
  match decode_step maxlen fault bs off with
  | SEnd => bs = [] /\ fault = false
  | STok t rest o => exists body, bs = (kind t :: body) ++ rest /\ o = off + lenN (kind t :: body) /\
                                  (wf_bytes body -> accepts maxlen t (kind t :: body))
  | SErr e o => off <= o <= off + lenN bs
  end.
Proof.
  destruct bs as [|k r].
  - rewrite step_nil, lenN_nil. destruct fault; [lia | split; reflexivity].
  - rewrite lenN_cons. destruct (kind_classify k) as [n mk Hf | strk Hk | Hk | Hf Hsb Hv].
    + rewrite (step_fixed _ _ _ _ _ _ _ Hf).
      destruct (takeN n r) as [[img r']|] eqn:Et; [|lia].
      apply takeN_some in Et. destruct Et as [-> Hl].
      exists img. cbn [kind]. rewrite lenN_cons, Hl, N.add_assoc.
      split; [reflexivity|]. split; [reflexivity|].
      intros Hwf. exact (acc_fixed _ _ _ _ _ Hf Hl Hwf).
    + rewrite (step_var strk) by exact Hk.
      pose proof (read_len_cases maxlen fault strk r (off + 1)) as Hrl.
      destruct (read_len maxlen fault strk r (off + 1)) as [len r' o|e o]; [|lia].
      destruct Hrl as (lf & -> & -> & Hlf). rewrite lenN_app.
      destruct (takeN len r') as [[pl r'']|] eqn:Et; [|lia].
      apply takeN_some in Et. destruct Et as [-> Hl].
      exists (lf ++ pl). cbn [kind app]. rewrite <- app_assoc, lenN_cons, lenN_app, Hl, !N.add_assoc.
      split; [reflexivity|]. split; [reflexivity|].
      intros Hwf. apply Forall_app in Hwf. subst len. apply acc_var; [exact Hk | apply Hlf, Hwf].
    + rewrite step_valueless by exact Hk.
      exists []. split; [reflexivity|]. split; [reflexivity|].
      intros _. apply acc_valueless. exact Hk.
    + rewrite step_bad by assumption. lia.
Qed.

Theorem step_sound maxlen fault bs off t rest off' : wf_bytes bs ->
  decode_step maxlen fault bs off = STok t rest off' ->
  exists piece, bs = piece ++ rest /\ off' = off + lenN piece /\ accepts maxlen t piece.
Proof.
  intros Hwf H. pose proof (step_cases maxlen fault bs off) as C. rewrite H in C.
  destruct C as (body & Hbs & Ho & Hacc).
  exists (kind t :: body). split; [exact Hbs|]. split; [exact Ho|].
  apply Hacc. rewrite Hbs in Hwf. apply Forall_cons_iff, proj2, Forall_app, proj1 in Hwf. exact Hwf.
Qed.

Lemma step_shrinks maxlen fault bs off t rest off' :
  decode_step maxlen fault bs off = STok t rest off' -> (length rest < length bs)%nat.
Proof.
  intros H. pose proof (step_cases maxlen fault bs off) as C. rewrite H in C.
  destruct C as (body & -> & _). rewrite app_length. apply Nat.lt_add_pos_l, Nat.lt_0_succ.
Qed.

Lemma step_end_inv maxlen fault bs off :
  decode_step maxlen fault bs off = SEnd -> bs = [] /\ fault = false.
Proof. intros H. pose proof (step_cases maxlen fault bs off) as C. rewrite H in C. exact C. Qed.

Theorem step_err_offset maxlen fault bs off e o :
  decode_step maxlen fault bs off = SErr e o -> off <= o <= off + lenN bs.
Proof. intros H. pose proof (step_cases maxlen fault bs off) as C. rewrite H in C. exact C. Qed.

Lemma decode_all_S f maxlen fault bs off :
  decode_all (S f) maxlen fault bs off =
  match decode_step maxlen fault bs off with
  | SEnd => ([], Done)
  | SErr e o => ([], Fail e o)
  | STok t r o => let '(ts, e) := decode_all f maxlen fault r o in (t :: ts, e)
  end.
Proof. reflexivity. Qed.

Lemma decode_all_fuel maxlen fault f1 : forall f2 bs off,
  (length bs < f1)%nat -> (length bs < f2)%nat ->
  decode_all f1 maxlen fault bs off = decode_all f2 maxlen fault bs off.
Proof.
  induction f1 as [|f1 IH]; intros f2 bs off H1 H2; [inversion H1|].
  destruct f2 as [|f2]; [inversion H2|]. rewrite !decode_all_S.
  destruct (decode_step maxlen fault bs off) as [|t r o|e o] eqn:Es; try reflexivity.
  apply step_shrinks in Es. rewrite (IH f2 r o) by lia. reflexivity.
Qed.

Lemma decode_all_no_fuel maxlen fault f : forall bs off,
  (length bs < f)%nat -> snd (decode_all f maxlen fault bs off) <> DOutOfFuel.
Proof.
  induction f as [|f IH]; intros bs off Hf; [inversion Hf|]. rewrite decode_all_S.
  destruct (decode_step maxlen fault bs off) as [|t r o|e o] eqn:Es; try discriminate.
  apply step_shrinks in Es. specialize (IH r o ltac:(lia)).
  destruct (decode_all f maxlen fault r o) as [ts d]. exact IH.
Qed.

Theorem decode_total maxlen fault bs off :
  snd (decode_all (S (length bs)) maxlen fault bs off) <> DOutOfFuel.
Proof. apply decode_all_no_fuel. apply Nat.lt_succ_diag_r. Qed.

Definition ikind (w : width) : N :=
  match w with WNat => KInt | W8 => KInt8 | W16 => KInt16 | W32 => KInt32 | W64 => KInt64 end.
Definition ukind (w : width) : N :=
  match w with WNat => KUint | W8 => KUint8 | W16 => KUint16 | W32 => KUint32 | W64 => KUint64 end.

Lemma fixed_ikind w :
  fixed_kind (ikind w) = Some (N.of_nat (wbytes w), fun n => VI w (untwos (wbytes w) n)).
Proof. destruct w; reflexivity. Qed.

Lemma fixed_ukind w : fixed_kind (ukind w) = Some (N.of_nat (wbytes w), fun n => VU w n).
Proof. destruct w; reflexivity. Qed.

Lemma shape_VI k w z : kind_shape k (VI w z) = true -> k = ikind w.
Proof. destruct w; apply N.eqb_eq. Qed.

Lemma shape_VU k w n : kind_shape k (VU w n) = true -> k = ukind w.
Proof. destruct w; apply N.eqb_eq. Qed.

Lemma wf_token_shape t : wf_token t = true -> kind_shape (kind t) (val t) = true.
Proof. unfold wf_token. intros H. apply andb_true_iff in H. tauto. Qed.

Lemma wf_token_val t : wf_token t = true -> wf_val (val t) = true.
Proof. unfold wf_token. intros H. apply andb_true_iff in H. tauto. Qed.

Lemma width_eqb_refl w : width_eqb w w = true.
Proof. destruct w; reflexivity. Qed.

Lemma wbytes_pos w : (0 < wbytes w)%nat.
Proof. destruct w; apply Nat.lt_0_succ. Qed.

Lemma uint_roundtrip w n : n < 2 ^ (8 * N.of_nat w) -> le_val (le_bytes w n) = n.
Proof. intros H. rewrite le_val_le_bytes. apply N.mod_small. exact H. Qed.

Lemma int_untwos w z : in_irange w z = true -> untwos (wbytes w) (twos (wbytes w) z) = z.
Proof.
  intros H. apply andb_true_iff in H. destruct H as [H1 H2].
  apply Z.leb_le in H1. apply Z.ltb_lt in H2.
  apply untwos_twos; [apply wbytes_pos | split; assumption].
Qed.

Lemma int_roundtrip w z : in_irange w z = true ->
  untwos (wbytes w) (le_val (le_bytes (wbytes w) (twos (wbytes w) z))) = z.
Proof. intros H. rewrite uint_roundtrip by apply twos_bound. apply int_untwos. exact H. Qed.

Lemma acc_le maxlen k w mk n : fixed_kind k = Some (N.of_nat w, mk) -> n < 2 ^ (8 * N.of_nat w) ->
  accepts maxlen (T k (mk n)) (k :: le_bytes w n).
Proof.
  intros Hf Hn.
  pose proof (acc_fixed maxlen k _ mk (le_bytes w n) Hf (le_bytes_lenN w n) (le_bytes_wf w n)) as H.
  rewrite (uint_roundtrip w n Hn) in H. exact H.
Qed.

Lemma len_prefix_field maxlen l : l <= maxlen -> l < 2 ^ 56 -> len_field maxlen l (len_prefix l).
Proof.
  intros Hm Hl. unfold len_prefix. destruct (N.ltb_spec l 128) as [Hlt|Hge].
  - apply lf_short; assumption.
  - pose proof (put_uvarint_len l Hl) as Hlen. apply lf_long.
    + unfold lenN. lia.
    + reflexivity.
    + apply put_uvarint_wf.
    + apply uv_parse_put, lt_56_64, Hl.
    + exact Hm.
Qed.

Theorem encode_accepts maxlen t : wf_enc maxlen t -> accepts maxlen t (encode_token t).
Proof.
  intros [Hwf Hlen]. pose proof (wf_token_shape t Hwf) as Hshape. pose proof (wf_token_val t Hwf) as Hval.
  destruct t as [k v]. unfold encode_token. cbn [kind val] in *.
  destruct v as [|b|w z|w n|n|n|n|s|s]; cbn [enc_val].
  - apply acc_valueless. exact Hshape.
  - apply N.eqb_eq in Hshape. subst k.
    pose proof (acc_le maxlen KBool 1 _ (if b then 1 else 0) eq_refl) as H.
    destruct b; apply H; reflexivity.
  - apply shape_VI in Hshape. subst k.
    pose proof (acc_le maxlen _ _ _ _ (fixed_ikind w) (twos_bound (wbytes w) z)) as H.
    cbv beta in H. rewrite (int_untwos w z Hval) in H. exact H.
  - apply shape_VU in Hshape. subst k.
    apply (acc_le maxlen _ _ _ _ (fixed_ukind w)). apply N.ltb_lt. exact Hval.
  - apply N.eqb_eq in Hshape. subst k.
    apply (acc_le maxlen KPointer 8 VPtr); [reflexivity | apply N.ltb_lt; exact Hval].
  - apply N.eqb_eq in Hshape. subst k.
    apply (acc_le maxlen KFloat32 4 VF32); [reflexivity | apply N.ltb_lt; exact Hval].
  - apply N.eqb_eq in Hshape. subst k.
    apply (acc_le maxlen KFloat64 8 VF64); [reflexivity | apply N.ltb_lt; exact Hval].
  - destruct Hlen as [Hm Hl]. apply (acc_var maxlen true); [exact Hshape|].
    apply len_prefix_field; assumption.
  - destruct Hlen as [Hm Hl]. apply (acc_var maxlen false); [exact Hshape|].
    apply len_prefix_field; assumption.
Qed.

Theorem step_exact maxlen fault t rest off : wf_enc maxlen t ->
  decode_step maxlen fault (encode_token t ++ rest) off = STok t rest (off + lenN (encode_token t)).
Proof. intros H. apply step_complete. apply encode_accepts. exact H. Qed.

Lemma encode_cons t ts : encode (t :: ts) = encode_token t ++ encode ts.
Proof. reflexivity. Qed.

Lemma encode_token_length t : (1 <= length (encode_token t))%nat.
Proof. apply le_n_S, Nat.le_0_l. Qed.

Lemma decode_all_app maxlen fault ts : Forall (wf_enc maxlen) ts -> forall f tail off,
  (length (encode ts ++ tail) < f)%nat ->
  decode_all f maxlen fault (encode ts ++ tail) off =
  let '(ts', r) := decode_all (S (length tail)) maxlen fault tail (off + lenN (encode ts)) in
  (ts ++ ts', r).
Proof.
  intros Hts. induction Hts as [|t ts Ht Hts IH]; intros f tail off Hf.
  - cbn [encode flat_map app] in *. rewrite lenN_nil, N.add_0_r.
    rewrite (decode_all_fuel maxlen fault f (S (length tail)) tail off) by lia.
    destruct (decode_all (S (length tail)) maxlen fault tail off) as [ts' r]. reflexivity.
  - rewrite encode_cons, <- app_assoc in *.
    destruct f as [|f]; [inversion Hf|]. rewrite decode_all_S.
    rewrite (step_exact maxlen fault t (encode ts ++ tail) off Ht).
    rewrite app_length in Hf. pose proof (encode_token_length t) as Hlt.
    rewrite (IH f tail (off + lenN (encode_token t))) by lia.
    rewrite lenN_app, N.add_assoc.
    destruct (decode_all (S (length tail)) maxlen fault tail (off + lenN (encode_token t) + lenN (encode ts))) as [ts' r].
    reflexivity.
Qed.

Theorem decode_encode maxlen ts : Forall (wf_enc maxlen) ts -> decode maxlen (encode ts) = (ts, Done).
Proof.
  intros Hts. unfold decode.
  pose proof (decode_all_app maxlen false ts Hts (S (length (encode ts))) [] 0) as H.
  rewrite app_nil_r in H. rewrite H by apply Nat.lt_succ_diag_r.
  rewrite decode_all_S, step_nil, app_nil_r. reflexivity.
Qed.

Lemma len_prefix_len l :
  lenN (len_prefix l) = if l <? 128 then 1 else 1 + lenN (put_uvarint l).
Proof. unfold len_prefix. destruct (l <? 128); [reflexivity | apply lenN_cons]. Qed.

Lemma val_len_correct v : val_len v = lenN (enc_val v).
Proof.
  destruct v as [|b|w z|w n|n|n|n|s|s]; cbn [val_len enc_val];
    try reflexivity; try (rewrite le_bytes_lenN; reflexivity).
  all: rewrite lenN_app, len_prefix_len; reflexivity.
Qed.

Lemma encoded_len_fold ts : forall a,
  fold_left (fun acc t => acc + 1 + val_len (val t)) ts a = a + lenN (encode ts).
Proof.
  induction ts as [|t ts IH]; intros a; cbn [fold_left].
  - symmetry. apply N.add_0_r.
  - rewrite IH, encode_cons, lenN_app. unfold encode_token.
    rewrite lenN_cons, val_len_correct, !N.add_assoc. reflexivity.
Qed.

Theorem encoded_len_correct ts : encoded_len ts = lenN (encode ts).
Proof. unfold encoded_len. rewrite encoded_len_fold. apply N.add_0_l. Qed.

Theorem writes_concat t : concat (encode_writes t) = encode_token t.
Proof.
  destruct t as [k v]. unfold encode_writes, encode_token. cbn [kind val concat app].
  f_equal.
  destruct v as [|b|w z|w n|n|n|n|s|s]; cbn [val_writes enc_val concat]; try apply app_nil_r.
  - reflexivity.
  - unfold len_prefix. destruct (lenN s <? 128); cbn [concat app]; rewrite app_nil_r; reflexivity.
  - unfold len_prefix. destruct (lenN s <? 128); cbn [concat app]; rewrite app_nil_r; reflexivity.
Qed.

Theorem stream_writes_concat ts : concat (stream_writes ts) = encode ts.
Proof.
  induction ts as [|t ts IH].
  - reflexivity.
  - unfold stream_writes in *. cbn [flat_map]. rewrite concat_app, IH, writes_concat. reflexivity.
Qed.

Lemma len_prefix_prefix_of l : l < 2 ^ 64 -> prefix_of l (len_prefix l).
Proof.
  intros Hl. unfold len_prefix. destruct (N.ltb_spec l 128) as [Hlt|Hge].
  - apply pf_short. exact Hlt.
  - apply pf_long; [exact Hge|]. apply put_uvarint_spec. exact Hl.
Qed.

Theorem encode_layout t : wf_token t = true ->
  (match val t with VStr s | VBytes s => lenN s < 2 ^ 64 | _ => True end) ->
  layout_token t (encode_token t).
Proof.
  destruct t as [k v]. intros _ (* wf_token t: not needed *) Hl. cbn [val] in Hl.
  exists (enc_val v). split; [reflexivity|]. cbn [val].
  destruct v as [|b|w z|w n|n|n|n|s|s]; cbn [enc_val].
  - apply lv_none.
  - apply lv_bool.
  - apply lv_int. apply (le_bytes_image (wbytes w) (twos (wbytes w) z)).
  - apply lv_uint. apply le_bytes_image.
  - apply lv_ptr. apply le_bytes_image.
  - apply lv_f32. apply le_bytes_image.
  - apply lv_f64. apply le_bytes_image.
  - apply lv_str. apply len_prefix_prefix_of. exact Hl.
  - apply lv_bytes. apply len_prefix_prefix_of. exact Hl.
Qed.

Theorem encode_layout_stream ts :
  Forall (fun t => wf_token t = true /\
                   match val t with VStr s | VBytes s => lenN s < 2 ^ 64 | _ => True end) ts ->
  layout_stream ts (encode ts).
Proof.
  intros H. induction H as [|t ts [Hw Hl] Hts IH].
  - apply ls_nil.
  - rewrite encode_cons. apply ls_cons; [apply encode_layout; assumption | exact IH].
Qed.

Lemma layout_val_unique v b1 b2 : layout_val v b1 -> layout_val v b2 -> b1 = b2.
Proof.
  intros H1 H2.
  destruct H1 as [|b|w z img H1|w n img H1|n img H1|n img H1|n img H1|s p H1|s p H1];
    inversion H2 as [|b'|w' z' img' H2'|w' n' img' H2'|n' img' H2'|n' img' H2'|n' img' H2'|s' p' H2'|s' p' H2']; subst;
    try reflexivity;
    try (eapply le_image_unique; eassumption).
  - f_equal. eapply prefix_of_unique; eassumption.
  - f_equal. eapply prefix_of_unique; eassumption.
Qed.

Theorem layout_token_unique t b1 b2 : layout_token t b1 -> layout_token t b2 -> b1 = b2.
Proof.
  intros [i1 [E1 H1]] [i2 [E2 H2]]. subst. f_equal. eapply layout_val_unique; eassumption.
Qed.

Lemma decode_exact_gen maxlen fault f : forall bs off ts r,
  wf_bytes bs -> (length bs < f)%nat -> decode_all f maxlen fault bs off = (ts, r) ->
  exists pieces rest, bs = concat pieces ++ rest /\ Forall2 (accepts maxlen) ts pieces /\
    ((r = Done /\ rest = [] /\ fault = false) \/
     (exists e o, r = Fail e o /\
        decode_step maxlen fault rest (off + lenN (concat pieces)) = SErr e o)).
Proof.
  induction f as [|f IH]; intros bs off ts r Hwf Hf H; [inversion Hf|].
  rewrite decode_all_S in H.
  destruct (decode_step maxlen fault bs off) as [|t r1 o1|e o] eqn:Es.
  - apply step_end_inv in Es. destruct Es as [-> ->]. injection H as <- <-.
    exists [], []. split; [reflexivity|]. split; [constructor|]. left. auto.
  - pose proof (step_shrinks _ _ _ _ _ _ _ Es) as Hsh.
    apply step_sound in Es; [|exact Hwf]. destruct Es as (piece & -> & -> & Hacc).
    destruct (decode_all f maxlen fault r1 (off + lenN piece)) as [ts1 d1] eqn:Ed.
    injection H as <- <-. apply Forall_app in Hwf.
    destruct (IH r1 _ ts1 d1 (proj2 Hwf) ltac:(lia) Ed) as (pieces & rest & -> & Hall & Hend).
    exists (piece :: pieces), rest. cbn [concat]. rewrite <- app_assoc, lenN_app, N.add_assoc.
    split; [reflexivity|]. split; [constructor; assumption | exact Hend].
  - injection H as <- <-.
    exists [], bs. split; [reflexivity|]. split; [constructor|].
    right. exists e, o. split; [reflexivity|]. rewrite N.add_0_r. exact Es.
Qed.

Theorem decode_exact maxlen fault bs off ts r : wf_bytes bs ->
  decode_all (S (length bs)) maxlen fault bs off = (ts, r) ->
  exists pieces rest, bs = concat pieces ++ rest /\ Forall2 (accepts maxlen) ts pieces /\
    ((r = Done /\ rest = [] /\ fault = false) \/
     (exists e o, r = Fail e o /\
        decode_step maxlen fault rest (off + lenN (concat pieces)) = SErr e o)).
Proof.
  intros Hwf H. exact (decode_exact_gen maxlen fault _ bs off ts r Hwf (Nat.lt_succ_diag_r _) H).
Qed.

Lemma read_len_cut maxlen fault strk len lf (m : nat) off :
  len_field maxlen len lf -> (m < length lf)%nat ->
  exists o, read_len maxlen fault strk (firstn m lf) off = LenErr (end_err fault) o.
Proof.
  intros Hlf Hm. destruct m as [|m]; [exists off; destruct lf; reflexivity|].
  destruct Hlf as [b Hb Hmax | l u len Hl Hu Hwf Hp Hmax]; cbn [length firstn] in *.
  - lia.
  - rewrite read_len_long by lia.
    replace (compl8 (255 - l)) with l by (unfold compl8; lia).
    apply N.ltb_ge in Hl. rewrite Hl.
    rewrite (takeN_cut l m u Hu) by lia. eexists. reflexivity.
Qed.

(* cut anywhere after the kind byte of a length-prefixed token: inside the field the
   field is short, after it the payload is *)
Lemma step_truncated_var strk maxlen fault k lf len pl (m : nat) off :
  var_kind strk k -> len_field maxlen len lf -> lenN pl = len -> (m < length (lf ++ pl))%nat ->
  exists o, decode_step maxlen fault (k :: firstn m (lf ++ pl)) off = SErr (end_err fault) o.
Proof.
  intros Hk Hlf Hpl Hm. rewrite (step_var strk) by exact Hk. rewrite firstn_app. rewrite app_length in Hm.
  destruct (Nat.lt_ge_cases m (length lf)) as [Hlt|Hge].
  - replace (m - length lf)%nat with 0%nat by lia. rewrite app_nil_r.
    destruct (read_len_cut maxlen fault strk len lf m (off + 1) Hlf Hlt) as [o ->].
    exists o. reflexivity.
  - rewrite firstn_all2 by exact Hge. rewrite (read_len_complete _ _ _ _ _ _ _ Hlf).
    rewrite (takeN_cut len _ pl Hpl) by lia. eexists. reflexivity.
Qed.

Theorem step_truncated maxlen fault t piece (n : nat) off :
  accepts maxlen t piece -> (0 < n < length piece)%nat ->
  exists o, decode_step maxlen fault (firstn n piece) off = SErr (end_err fault) o.
Proof.
  intros H [Hn0 Hn]. destruct n as [|m]; [inversion Hn0|].
  destruct H as [k Hk | k n0 mk img Hf Hl Hwf | k lf len pl Hk Hlf Hpl | k lf len pl Hk Hlf Hpl];
    cbn [firstn length] in *; apply Nat.succ_lt_mono in Hn.
  - inversion Hn.
  - rewrite (step_fixed _ _ _ _ _ _ _ Hf).
    rewrite (takeN_cut n0 m img Hl) by exact Hn. eexists. reflexivity.
  - exact (step_truncated_var true _ _ _ _ _ _ _ _ Hk Hlf Hpl Hn).
  - exact (step_truncated_var false _ _ _ _ _ _ _ _ Hk Hlf Hpl Hn).
Qed.

Theorem no_silent_truncation maxlen ts t (n : nat) :
  Forall (wf_enc maxlen) ts -> wf_enc maxlen t -> (0 < n < length (encode_token t))%nat ->
  exists o, decode maxlen (encode ts ++ firstn n (encode_token t)) = (ts, Fail EEnd o) /\
            lenN (encode ts) <= o <= lenN (encode ts) + N.of_nat n.
Proof.
  intros Hts Ht Hn. unfold decode.
  rewrite (decode_all_app maxlen false ts Hts) by apply Nat.lt_succ_diag_r.
  rewrite decode_all_S.
  destruct (step_truncated maxlen false t (encode_token t) n (0 + lenN (encode ts))
              (encode_accepts maxlen t Ht) Hn) as [o Ho].
  rewrite Ho. exists o. split.
  - rewrite app_nil_r. reflexivity.
  - apply step_err_offset in Ho. rewrite lenN_firstn in Ho by lia. exact Ho.
Qed.

Lemma step_toolong strk maxlen fault k l r off : var_kind strk k -> maxlen < l -> l < 2 ^ 56 ->
  exists o, decode_step maxlen fault (k :: len_prefix l ++ r) off = SErr (toolong strk) o.
Proof.
  intros Hk Hm Hl. rewrite (step_var strk) by exact Hk.
  rewrite (read_len_field l _ _ _ _ _ _ _ (len_prefix_field l l (N.le_refl l) Hl)).
  apply N.ltb_lt in Hm. rewrite Hm. eexists. reflexivity.
Qed.

Theorem limit_boundary_reject maxlen k s rest off :
  is_str_kind k = true -> lenN s = maxlen + 1 -> lenN s < 2 ^ 56 -> wf_bytes s ->
  exists o, decode_step maxlen false (encode_token (T k (VStr s)) ++ rest) off = SErr EStrTooLong o.
Proof.
  intros Hk Hs Hl _ (* wf_bytes s: not needed; limit_boundary_accept uses it *). unfold encode_token. cbn [kind val enc_val app]. rewrite <- app_assoc.
  apply (step_toolong true); [exact Hk | lia | exact Hl].
Qed.

Theorem limit_boundary_reject_bytes maxlen k s rest off :
  is_bytes_kind k = true -> lenN s = maxlen + 1 -> lenN s < 2 ^ 56 -> wf_bytes s ->
  exists o, decode_step maxlen false (encode_token (T k (VBytes s)) ++ rest) off = SErr EBytesTooLong o.
Proof.
  intros Hk Hs Hl _ (* wf_bytes s: not needed; limit_boundary_accept_bytes uses it *). unfold encode_token. cbn [kind val enc_val app]. rewrite <- app_assoc.
  apply (step_toolong false); [exact Hk | lia | exact Hl].
Qed.

Lemma wf_enc_var strk maxlen k s : var_kind strk k -> lenN s <= maxlen -> lenN s < 2 ^ 56 ->
  wf_bytes s -> wf_enc maxlen (T k (var_val strk s)).
Proof.
  intros Hk Hm Hl Hwf. apply wf_bytesb_iff in Hwf.
  destruct strk; (split; [apply andb_true_iff|]; split; assumption).
Qed.

Corollary limit_boundary_accept maxlen k s rest off :
  is_str_kind k = true -> lenN s = maxlen -> lenN s < 2 ^ 56 -> wf_bytes s ->
  decode_step maxlen false (encode_token (T k (VStr s)) ++ rest) off =
  STok (T k (VStr s)) rest (off + lenN (encode_token (T k (VStr s)))).
Proof.
  intros Hk Hs Hl Hwf. apply step_exact, (wf_enc_var true); try assumption. apply N.eq_le_incl, Hs.
Qed.

Corollary limit_boundary_accept_bytes maxlen k s rest off :
  is_bytes_kind k = true -> lenN s = maxlen -> lenN s < 2 ^ 56 -> wf_bytes s ->
  decode_step maxlen false (encode_token (T k (VBytes s)) ++ rest) off =
  STok (T k (VBytes s)) rest (off + lenN (encode_token (T k (VBytes s)))).
Proof.
  intros Hk Hs Hl Hwf. apply step_exact, (wf_enc_var false); try assumption. apply N.eq_le_incl, Hs.
Qed.

Lemma fault_never_done_gen maxlen f : forall bs off,
  snd (decode_all f maxlen true bs off) <> Done.
Proof.
  induction f as [|f IH]; intros bs off; [discriminate|].
  rewrite decode_all_S.
  destruct (decode_step maxlen true bs off) as [|t r o|e o] eqn:Es.
  - apply step_end_inv in Es. destruct Es as [_ Hf]. discriminate.
  - specialize (IH r o). destruct (decode_all f maxlen true r o) as [ts d]. exact IH.
  - discriminate.
Qed.

Theorem fault_never_done maxlen bs off :
  snd (decode_all (S (length bs)) maxlen true bs off) <> Done.
Proof. apply fault_never_done_gen. Qed.

(* The fault flag only changes which error ends the decoding, and where no error
   would have: a length field or a token read without fault is read the same with it. *)
Lemma read_len_fault maxlen strk bs off :
  match read_len maxlen false strk bs off with
  | LenOk l r o => read_len maxlen true strk bs off = LenOk l r o
  | LenErr e o => exists e', read_len maxlen true strk bs off = LenErr e' o
  end.
Proof.
  destruct bs as [|b bs].
  - rewrite !read_len_nil. eexists; reflexivity.
  - destruct (N.ltb_spec b 128) as [Hb|Hb].
    + rewrite !read_len_short by exact Hb. destruct (maxlen <? b); [eexists; reflexivity | reflexivity].
    + rewrite !read_len_long by exact Hb.
      destruct (8 <? compl8 b); [eexists; reflexivity|].
      destruct (takeN (compl8 b) bs) as [[u r']|]; [|eexists; reflexivity].
      destruct (read_uvarint u) as [v| | |]; try (eexists; reflexivity).
      destruct (maxlen <? v); [eexists; reflexivity | reflexivity].
Qed.

Lemma step_fault maxlen bs off :
  match decode_step maxlen false bs off with
  | STok t r o => decode_step maxlen true bs off = STok t r o
  | _ => exists e o, decode_step maxlen true bs off = SErr e o
  end.
Proof.
  destruct bs as [|k r].
  - rewrite !step_nil. eexists; eexists; reflexivity.
  - destruct (kind_classify k) as [n mk Hf | strk Hk | Hk | Hf Hsb Hv].
    + rewrite !(step_fixed _ _ _ _ _ _ _ Hf).
      destruct (takeN n r) as [[img r']|]; [reflexivity | eexists; eexists; reflexivity].
    + rewrite !(step_var strk) by exact Hk.
      pose proof (read_len_fault maxlen strk r (off + 1)) as Hrl.
      destruct (read_len maxlen false strk r (off + 1)) as [len r' o|e o].
      * rewrite Hrl. destruct (takeN len r') as [[pl r'']|]; [reflexivity | eexists; eexists; reflexivity].
      * destruct Hrl as [e' ->]. eexists; eexists; reflexivity.
    + rewrite !step_valueless by exact Hk. reflexivity.
    + rewrite !step_bad by assumption. eexists; eexists; reflexivity.
Qed.

Lemma fault_tokens_same_gen maxlen f : forall bs off,
  fst (decode_all f maxlen true bs off) = fst (decode_all f maxlen false bs off).
Proof.
  induction f as [|f IH]; intros bs off; [reflexivity|].
  rewrite !decode_all_S.
  pose proof (step_fault maxlen bs off) as Hs.
  destruct (decode_step maxlen false bs off) as [|t r o|e o].
  - destruct Hs as (e' & o' & ->). reflexivity.
  - rewrite Hs. specialize (IH r o).
    destruct (decode_all f maxlen true r o) as [ts1 d1].
    destruct (decode_all f maxlen false r o) as [ts2 d2].
    cbn [fst] in *. rewrite IH. reflexivity.
  - destruct Hs as (e' & o' & ->). reflexivity.
Qed.

Theorem fault_tokens_same maxlen bs off :
  fst (decode_all (S (length bs)) maxlen true bs off) =
  fst (decode_all (S (length bs)) maxlen false bs off).
Proof. apply fault_tokens_same_gen. Qed.

Lemma fail_offset_gen maxlen fault f : forall bs off ts e o,
  decode_all f maxlen fault bs off = (ts, Fail e o) -> off <= o <= off + lenN bs.
Proof.
  induction f as [|f IH]; intros bs off ts e o H; [discriminate|].
  rewrite decode_all_S in H.
  pose proof (step_cases maxlen fault bs off) as C.
  destruct (decode_step maxlen fault bs off) as [|t r o1|e1 o1].
  - discriminate.
  - destruct C as (body & -> & -> & _).
    destruct (decode_all f maxlen fault r _) as [ts1 d1] eqn:Ed.
    injection H as _ ->. apply IH in Ed. rewrite lenN_app. lia.
  - injection H as _ <- <-. exact C.
Qed.

Theorem fail_offset_in_range maxlen fault bs off ts e o :
  decode_all (S (length bs)) maxlen fault bs off = (ts, Fail e o) -> off <= o <= off + lenN bs.
Proof. apply fail_offset_gen. Qed.

Lemma write_until_zero ws : write_until 0 ws = (concat ws, false).
Proof.
  induction ws as [|w r IH]; cbn [write_until concat pred].
  - reflexivity.
  - rewrite IH. reflexivity.
Qed.

Lemma write_until_SS k w r :
  write_until (S (S k)) (w :: r) = let '(acc, f) := write_until (S k) r in (w ++ acc, f).
Proof. reflexivity. Qed.

Theorem write_until_spec k ws :
  let '(acc, failed) := write_until k ws in
  (failed = true <-> (1 <= k <= length ws)%nat) /\
  (failed = true -> acc = concat (firstn (k - 1) ws)) /\
  (failed = false -> acc = concat ws).
Proof.
  revert k. induction ws as [|w r IH]; intros k.
  - cbn [write_until length]. split; [split; [discriminate|lia]|]. split; [discriminate|reflexivity].
  - destruct k as [|[|k]].
    + rewrite write_until_zero. cbn [length].
      split; [split; [discriminate|lia]|]. split; [discriminate|reflexivity].
    + cbn [write_until length]. split; [split; [lia|reflexivity]|].
      split; [reflexivity|discriminate].
    + rewrite write_until_SS. specialize (IH (S k)).
      destruct (write_until (S k) r) as [acc f]. destruct IH as (IH1 & IH2 & IH3).
      cbn [length]. split; [rewrite IH1; lia|]. split; intros Hf.
      * rewrite (IH2 Hf). cbn [Nat.sub firstn concat]. rewrite Nat.sub_0_r. reflexivity.
      * rewrite (IH3 Hf). reflexivity.
Qed.

Corollary writer_fault_prefix k ts :
  exists suffix, encode ts = fst (write_until k (stream_writes ts)) ++ suffix.
Proof.
  pose proof (write_until_spec k (stream_writes ts)) as H.
  destruct (write_until k (stream_writes ts)) as [acc f]. destruct H as (_ & H2 & H3).
  cbn [fst]. rewrite <- stream_writes_concat. destruct f.
  - rewrite (H2 eq_refl). exists (concat (skipn (k - 1) (stream_writes ts))).
    rewrite <- concat_app, firstn_skipn. reflexivity.
  - rewrite (H3 eq_refl). exists []. symmetry. apply app_nil_r.
Qed.

(* a token of a length-prefixed kind from its payload (CompareP.mkseg, written with var_val) *)
Definition var_tok (k : N) (strk : bool) (seg : bytes) : token := T k (var_val strk seg).

Lemma segments_S f k strk fault step len avail off :
  segments (S f) k strk fault step len avail off =
  if len =? 0 then ([], inl (avail, off))
  else match takeN (N.min step len) avail with
       | None => ([], inr (end_err fault, off))
       | Some (seg, r) =>
           let '(ts, out) := segments f k strk fault (2 * step) (len - N.min step len) r
                                      (off + N.min step len) in
           (var_tok k strk seg :: ts, out)
       end.
Proof. reflexivity. Qed.

(* segments reads what one takeN of the whole payload would read: with enough input
   the segments are exactly the payload, with too little it ends in the same
   end-of-input class, at an offset inside the input.  The induction follows the
   segment-wise reads (takeN_split). *)
Lemma segments_spec k strk fault f : forall step len avail off,
  1 <= step -> (length avail < f)%nat ->
  match takeN len avail with
  | Some (pl, r) => exists segs, segments f k strk fault step len avail off =
                                 (map (var_tok k strk) segs, inl (r, off + len)) /\ concat segs = pl
  | None => exists ts o, segments f k strk fault step len avail off = (ts, inr (end_err fault, o)) /\
                         off <= o <= off + lenN avail
  end.
Proof.
  induction f as [|f IH]; intros step len avail off Hstep Hf; [inversion Hf|].
  rewrite segments_S. destruct (N.eqb_spec len 0) as [->|Hlen].
  - change avail with ([] ++ avail) at 1. rewrite (takeN_app' 0 [] avail eq_refl), N.add_0_r.
    exists []. split; reflexivity.
  - assert (Hl : 1 <= N.min step len <= len) by lia.
    generalize dependent (N.min step len). intros l Hl.  (* of the segment length l only Hl is used *)
    destruct (takeN l avail) as [[seg r1]|] eqn:Et.
    + apply takeN_some in Et. destruct Et as [-> Hseg].
      rewrite (takeN_split _ len seg r1 (proj2 Hl) Hseg), app_length in *.
      specialize (IH (2 * step) (len - l) r1 (off + l)
                     ltac:(lia) ltac:(unfold lenN in Hseg; lia)).
      destruct (takeN (len - l) r1) as [[p r]|].
      * destruct IH as (segs & -> & <-). exists (seg :: segs). split; [|reflexivity].
        cbn [map]. rewrite <- N.add_assoc, (N.add_comm l), N.sub_add by apply Hl.
        reflexivity.
      * destruct IH as (ts & o & -> & Ho). eexists; exists o. split; [reflexivity|].
        rewrite lenN_app, Hseg. lia.
    + apply takeN_none in Et. rewrite takeN_short by lia.
      eexists; exists off. split; [reflexivity|]. lia.
Qed.

(* the two kinds the compare decoder segments, and their bracket tokens (segm_kind is
   CompareP.seg_kind; CompareP.seg_begin and seg_end are the kinds of the two tokens) *)
Definition segm_kind (strk : bool) : N := if strk then KString else KBytes.
Definition segm_begin (strk : bool) : token := T (if strk then KStringBegin else KBytesBegin) VNone.
Definition segm_end (strk : bool) : token := T (if strk then KStringEnd else KBytesEnd) VNone.

Lemma cmp_kind_cases k :
  (exists strk, k = segm_kind strk) \/ (k =? KString) || (k =? KBytes) = false.
Proof.
  destruct (N.eqb_spec k KString) as [->|_]; [left; exists true; reflexivity|].
  destruct (N.eqb_spec k KBytes) as [->|_]; [left; exists false; reflexivity|].
  right. reflexivity.
Qed.

Lemma cmp_step_nil maxlen fault off :
  decode_cmp_step maxlen fault [] off = if fault then CErr [] EFault off else CEnd.
Proof. reflexivity. Qed.

Lemma cmp_step_seg strk maxlen fault r off :
  decode_cmp_step maxlen fault (segm_kind strk :: r) off =
  match read_len maxlen fault strk r (off + 1) with
  | LenErr e o => CErr [] e o
  | LenOk len r' o =>
      match segments (S (length r')) (segm_kind strk) strk fault init_step len r' o with
      | (ts, inl (r'', o')) => CToks (segm_begin strk :: ts ++ [segm_end strk]) r'' o'
      | (ts, inr (e, o')) => CErr (segm_begin strk :: ts) e o'
      end
  end.
Proof. destruct strk; reflexivity. Qed.

Lemma cmp_step_other maxlen fault k r off : (k =? KString) || (k =? KBytes) = false ->
  decode_cmp_step maxlen fault (k :: r) off =
  match decode_step maxlen fault (k :: r) off with
  | SEnd => CEnd
  | SErr e o => CErr [] e o
  | STok t r' o => CToks [t] r' o
  end.
Proof. intros H. unfold decode_cmp_step. rewrite H. reflexivity. Qed.

Lemma decode_cmp_all_S f maxlen fault bs off :
  decode_cmp_all (S f) maxlen fault bs off =
  match decode_cmp_step maxlen fault bs off with
  | CEnd => ([], Done)
  | CErr ts e o => (ts, Fail e o)
  | CToks ts r o => let '(more, e) := decode_cmp_all f maxlen fault r o in (ts ++ more, e)
  end.
Proof. reflexivity. Qed.

Lemma cmp_step_cases maxlen fault bs off :
  match decode_cmp_step maxlen fault bs off with
  | CEnd => True
  | CToks ts rest o => exists piece, bs = piece ++ rest /\ o = off + lenN piece
  | CErr ts e o => off <= o <= off + lenN bs
  end.
Proof.
  destruct bs as [|k r].
  - rewrite cmp_step_nil, lenN_nil. destruct fault; [lia | exact I].
  - destruct (cmp_kind_cases k) as [[strk ->] | Hk].
    + rewrite cmp_step_seg, lenN_cons.
      pose proof (read_len_cases maxlen fault strk r (off + 1)) as Hrl.
      destruct (read_len maxlen fault strk r (off + 1)) as [len r' o|e o]; [|lia].
      destruct Hrl as (lf & -> & -> & _). rewrite lenN_app.
      pose proof (segments_spec (segm_kind strk) strk fault (S (length r')) init_step len r'
                    (off + 1 + lenN lf) ltac:(discriminate) (Nat.lt_succ_diag_r _)) as Hs.
      destruct (takeN len r') as [[pl r'']|] eqn:Et.
      * destruct Hs as (segs & -> & _). apply takeN_some in Et. destruct Et as [-> <-].
        exists (segm_kind strk :: lf ++ pl). split.
        -- cbn [app]. rewrite <- app_assoc. reflexivity.
        -- rewrite lenN_cons, lenN_app, !N.add_assoc. reflexivity.
      * destruct Hs as (sts & o' & -> & Ho). lia.
    + rewrite cmp_step_other by exact Hk.
      pose proof (step_cases maxlen fault (k :: r) off) as C.
      destruct (decode_step maxlen fault (k :: r) off) as [|t r' o|e o].
      * exact I.
      * destruct C as (body & Hbs & Ho & _). exists (kind t :: body). split; assumption.
      * exact C.
Qed.

Lemma fail_offset_cmp_gen maxlen fault f : forall bs off ts e o,
  decode_cmp_all f maxlen fault bs off = (ts, Fail e o) -> off <= o <= off + lenN bs.
Proof.
  induction f as [|f IH]; intros bs off ts e o H; [discriminate|].
  rewrite decode_cmp_all_S in H.
  pose proof (cmp_step_cases maxlen fault bs off) as C.
  destruct (decode_cmp_step maxlen fault bs off) as [|ts1 r o1|ts1 e1 o1].
  - discriminate.
  - destruct C as (piece & -> & ->).
    destruct (decode_cmp_all f maxlen fault r _) as [more d1] eqn:Ed.
    injection H as _ ->. apply IH in Ed. rewrite lenN_app. lia.
  - injection H as _ <- <-. exact C.
Qed.

Theorem fail_offset_in_range_cmp maxlen fault bs off ts e o :
  decode_cmp_all (S (length bs)) maxlen fault bs off = (ts, Fail e o) -> off <= o <= off + lenN bs.
Proof. apply fail_offset_cmp_gen. Qed.

Lemma step_tok_kind maxlen fault bs off t rest off' :
  decode_step maxlen fault bs off = STok t rest off' ->
  kind t <> KStringBegin /\ kind t <> KBytesBegin.
Proof.
  intros H. pose proof (step_cases maxlen fault bs off) as C. rewrite H in C.
  destruct C as (body & -> & _).
  split; intros E; rewrite E in H; cbn [app] in H; rewrite step_bad in H by reflexivity; discriminate.
Qed.

Lemma deseg_plain t more : kind t <> KStringBegin -> kind t <> KBytesBegin ->
  desegment (t :: more) = t :: desegment more.
Proof.
  intros H1 H2. unfold desegment. cbn [deseg].
  apply N.eqb_neq in H1. apply N.eqb_neq in H2. rewrite H1, H2. reflexivity.
Qed.

Lemma deseg_segs strk rest : forall segs a,
  deseg (Some (strk, a)) (map (var_tok (segm_kind strk) strk) segs ++ segm_end strk :: rest) =
  T (segm_kind strk) (var_val strk (a ++ concat segs)) :: deseg None rest.
Proof.
  induction segs as [|s segs IH]; intros a; cbn [map concat app].
  - rewrite app_nil_r. destruct strk; reflexivity.
  - rewrite app_assoc, <- IH. destruct strk; reflexivity.
Qed.

Definition step_rel (s : dstep) (c : cstep) : Prop :=
  match s, c with
  | SEnd, CEnd => True
  | SErr e _, CErr _ e' _ => e = e'
  | STok t r o, CToks ts r' o' =>
      r = r' /\ o = o' /\ forall more, desegment (ts ++ more) = t :: desegment more
  | _, _ => False
  end.

Lemma cmp_step_rel_seg strk maxlen fault r off :
  step_rel (decode_step maxlen fault (segm_kind strk :: r) off)
           (decode_cmp_step maxlen fault (segm_kind strk :: r) off).
Proof.
  rewrite (step_var strk), cmp_step_seg by (destruct strk; reflexivity).
  destruct (read_len maxlen fault strk r (off + 1)) as [len r' o|e o]; [|reflexivity].
  pose proof (segments_spec (segm_kind strk) strk fault (S (length r')) init_step len r' o
                ltac:(discriminate) (Nat.lt_succ_diag_r _)) as Hs.
  destruct (takeN len r') as [[pl r'']|].
  - destruct Hs as (segs & -> & <-). split; [reflexivity|]. split; [reflexivity|].
    intros more. unfold desegment. cbn [app]. rewrite <- app_assoc. cbn [app].
    etransitivity; [|apply (deseg_segs strk more segs [])]. destruct strk; reflexivity.
  - destruct Hs as (sts & o' & -> & _). reflexivity.
Qed.

Lemma cmp_step_rel maxlen fault bs off :
  step_rel (decode_step maxlen fault bs off) (decode_cmp_step maxlen fault bs off).
Proof.
  destruct bs as [|k r].
  - rewrite step_nil, cmp_step_nil. destruct fault; reflexivity.
  - destruct (cmp_kind_cases k) as [[strk ->] | Hk]; [apply cmp_step_rel_seg|].
    rewrite cmp_step_other by exact Hk.
    destruct (decode_step maxlen fault (k :: r) off) as [|t r' o|e o] eqn:Es; try reflexivity.
    split; [reflexivity|]. split; [reflexivity|]. intros more.
    apply step_tok_kind in Es. apply deseg_plain; apply Es.
Qed.

Definition all_rel (a b : list token * dend) : Prop :=
  match snd a, snd b with
  | Done, Done => desegment (fst b) = fst a
  | Fail e1 _, Fail e2 _ => e1 = e2
  | _, _ => False
  end.

Lemma all_rel_inv a b : all_rel a b ->
  snd a = Done /\ snd b = Done /\ desegment (fst b) = fst a \/
  exists e o1 o2, snd a = Fail e o1 /\ snd b = Fail e o2.
Proof.
  unfold all_rel. destruct (snd a) as [|e1 o1|], (snd b) as [|e2 o2|]; try contradiction; [now left|].
  intros <-. right. now exists e1, o1, o2.
Qed.

Lemma cmp_rel maxlen fault f1 : forall f2 bs off,
  (length bs < f1)%nat -> (length bs < f2)%nat ->
  all_rel (decode_all f1 maxlen fault bs off) (decode_cmp_all f2 maxlen fault bs off).
Proof.
  induction f1 as [|f1 IH]; intros f2 bs off H1 H2; [inversion H1|].
  destruct f2 as [|f2]; [inversion H2|].
  rewrite decode_all_S, decode_cmp_all_S.
  pose proof (cmp_step_rel maxlen fault bs off) as Hrel.
  destruct (decode_step maxlen fault bs off) as [|t r o|e o] eqn:Es;
    destruct (decode_cmp_step maxlen fault bs off) as [|ts r' o'|ts e' o'];
    try contradiction.
  - reflexivity.
  - destruct Hrel as (<- & <- & Hdes).
    apply step_shrinks in Es.
    specialize (IH f2 r o ltac:(lia) ltac:(lia)).
    destruct (decode_all f1 maxlen fault r o) as [ts1 d1].
    destruct (decode_cmp_all f2 maxlen fault r o) as [ts2 d2].
    unfold all_rel in *. cbn [fst snd] in *.
    destruct d1 as [|e1 o1|]; destruct d2 as [|e2 o2|]; try contradiction.
    + rewrite Hdes, IH. reflexivity.
    + exact IH.
  - exact Hrel.
Qed.

Lemma cmp_rel_S maxlen fault bs off :
  all_rel (decode_all (S (length bs)) maxlen fault bs off)
          (decode_cmp_all (S (length bs)) maxlen fault bs off).
Proof. apply cmp_rel; apply Nat.lt_succ_diag_r. Qed.

Lemma cmp_rel_top maxlen bs : all_rel (decode maxlen bs) (decode_cmp maxlen bs).
Proof. exact (cmp_rel_S maxlen false bs 0). Qed.

(* all_rel leaves no room for DOutOfFuel, and matches Done with Done: totality and
   the fault theorem carry over from the plain decoder *)
Theorem decode_cmp_total maxlen fault bs off :
  snd (decode_cmp_all (S (length bs)) maxlen fault bs off) <> DOutOfFuel.
Proof.
  destruct (all_rel_inv _ _ (cmp_rel_S maxlen fault bs off)) as [(_ & -> & _)|(e & o1 & o2 & _ & ->)];
    discriminate.
Qed.

Theorem fault_never_done_cmp maxlen bs off :
  snd (decode_cmp_all (S (length bs)) maxlen true bs off) <> Done.
Proof.
  destruct (all_rel_inv _ _ (cmp_rel_S maxlen true bs off)) as [(Ea & _)|(e & o1 & o2 & _ & ->)];
    [destruct (fault_never_done maxlen bs off Ea)|discriminate].
Qed.

Theorem cmp_same_language maxlen bs : wf_bytes bs ->
  (snd (decode maxlen bs) = Done <-> snd (decode_cmp maxlen bs) = Done).
Proof.
  intros _ (* wf_bytes bs: not needed *).
  destruct (all_rel_inv _ _ (cmp_rel_top maxlen bs)) as [(-> & -> & _)|(e & o1 & o2 & -> & ->)];
    split; intros; (reflexivity || discriminate).
Qed.

Theorem cmp_same_class maxlen bs : wf_bytes bs ->
  match snd (decode maxlen bs), snd (decode_cmp maxlen bs) with
  | Done, Done => True
  | Fail e1 _, Fail e2 _ => e1 = e2
  | _, _ => False
  end.
Proof.
  intros _ (* wf_bytes bs: not needed *).
  destruct (all_rel_inv _ _ (cmp_rel_top maxlen bs)) as [(-> & -> & _)|(e & o1 & o2 & -> & ->)];
    [exact I|reflexivity].
Qed.

Theorem cmp_desegment maxlen bs : wf_bytes bs -> snd (decode maxlen bs) = Done ->
  desegment (fst (decode_cmp maxlen bs)) = fst (decode maxlen bs).
Proof.
  intros _ (* wf_bytes bs: not needed *) Hd.
  destruct (all_rel_inv _ _ (cmp_rel_top maxlen bs)) as [(_ & _ & H)|(e & o1 & o2 & E & _)];
    [exact H|congruence].
Qed.

Definition ex_ts : list token :=
  [T KInt (VI WNat (-5)); T KString (VStr [104; 105]); T KArray VNone;
   T KBytes (VBytes (rep 200 7)); T KBool (VBool true); T KUint16 (VU W16 513); T KArrayEnd VNone].

Example ex_wf : Forall (wf_enc default_maxlen) ex_ts.
Proof. unfold ex_ts. repeat constructor; vm_compute; discriminate. Qed.

Example ex_wf_bytes : wf_bytes (encode ex_ts).
Proof. apply wf_bytesb_iff. vm_compute. reflexivity. Qed.

Example ex_step_exact :
  decode_step default_maxlen false (encode_token (T KBytes (VBytes (rep 200 7))) ++ [1; 2]) 10 =
  STok (T KBytes (VBytes (rep 200 7))) [1; 2] (10 + 204).
Proof.
  apply (step_exact default_maxlen false (T KBytes (VBytes (rep 200 7))) [1; 2] 10).
  repeat constructor; vm_compute; discriminate.
Qed.

Example ex_decode_encode : decode default_maxlen (encode ex_ts) = (ex_ts, Done).
Proof. exact (decode_encode default_maxlen ex_ts ex_wf). Qed.

Example ex_encoded_len : encoded_len ex_ts = 224.
Proof. vm_compute. reflexivity. Qed.

Example ex_layout : layout_token (T KUint16 (VU W16 513)) [130; 1; 2].
Proof. apply (encode_layout (T KUint16 (VU W16 513))); [reflexivity | exact I]. Qed.

Example ex_layout_long : layout_token (T KBytes (VBytes (rep 200 7))) (55 :: 253 :: 200 :: 1 :: rep 200 7).
Proof.
  apply (encode_layout (T KBytes (VBytes (rep 200 7)))); [reflexivity | vm_compute; reflexivity].
Qed.

(* a non-canonical but accepted encoding: over-long length varint [130; 0] = 2 *)
Example ex_noncanonical :
  exists piece, [50; 253; 130; 0; 1; 2; 30] = piece ++ [30] /\ 6 = 0 + lenN piece /\
                accepts 100 (T KString (VStr [1; 2])) piece.
Proof.
  apply (step_sound 100 false [50; 253; 130; 0; 1; 2; 30] 0).
  - apply wf_bytesb_iff. reflexivity.
  - reflexivity.
Qed.

Example ex_truncation :
  exists o, decode default_maxlen (encode ex_ts ++ firstn 2 (encode_token (T KString (VStr [104; 105]))))
            = (ex_ts, Fail EEnd o) /\ lenN (encode ex_ts) <= o <= lenN (encode ex_ts) + 2.
Proof.
  apply (no_silent_truncation default_maxlen ex_ts (T KString (VStr [104; 105])) 2 ex_wf).
  - repeat constructor; vm_compute; discriminate.
  - vm_compute. lia.
Qed.

Example ex_limit :
  exists o, decode_step 3 false (encode_token (T KString (VStr [1; 2; 3; 4])) ++ [30]) 0 = SErr EStrTooLong o.
Proof.
  apply limit_boundary_reject; try reflexivity.
  apply wf_bytesb_iff. reflexivity.
Qed.

Example ex_cmp : desegment (fst (decode_cmp default_maxlen (encode ex_ts))) = ex_ts.
Proof.
  rewrite (cmp_desegment default_maxlen (encode ex_ts) ex_wf_bytes); rewrite ex_decode_encode; reflexivity.
Qed.

Example ex_cmp_segments :
  map kind (fst (decode_cmp default_maxlen (encode [T KBytes (VBytes (rep 30 7))]))) =
  [KBytesBegin; KBytes; KBytes; KBytes; KBytesEnd].
Proof. vm_compute. reflexivity. Qed.

Example ex_fault :
  decode_all (S (length (encode ex_ts))) default_maxlen true (encode ex_ts) 0 =
  (ex_ts, Fail EFault 224).
Proof.
  pose proof (decode_all_app default_maxlen true ex_ts ex_wf (S (length (encode ex_ts))) [] 0) as H.
  rewrite app_nil_r in H. rewrite H by apply Nat.lt_succ_diag_r.
  rewrite decode_all_S, step_nil, app_nil_r, <- encoded_len_correct, ex_encoded_len. reflexivity.
Qed.

Example ex_write_until :
  write_until 4 (stream_writes ex_ts) = (firstn 10 (encode ex_ts), true).
Proof. reflexivity. Qed.

Print Assumptions step_exact.
Print Assumptions decode_encode.
Print Assumptions encoded_len_correct.
Print Assumptions writes_concat.
Print Assumptions stream_writes_concat.
Print Assumptions encode_layout.
Print Assumptions encode_layout_stream.
Print Assumptions layout_token_unique.
Print Assumptions decode_total.
Print Assumptions decode_cmp_total.
Print Assumptions step_sound.
Print Assumptions step_complete.
Print Assumptions accepts_prefix_free.
Print Assumptions decode_exact.
Print Assumptions step_err_offset.
Print Assumptions step_truncated.
Print Assumptions no_silent_truncation.
Print Assumptions limit_boundary_reject.
Print Assumptions limit_boundary_reject_bytes.
Print Assumptions limit_boundary_accept.
Print Assumptions limit_boundary_accept_bytes.
Print Assumptions cmp_same_language.
Print Assumptions cmp_same_class.
Print Assumptions cmp_desegment.
Print Assumptions fault_never_done.
Print Assumptions fault_never_done_cmp.
Print Assumptions fault_tokens_same.
Print Assumptions fail_offset_in_range.
Print Assumptions fail_offset_in_range_cmp.
Print Assumptions write_until_spec.
Print Assumptions writer_fault_prefix.
Print Assumptions encode_accepts.
