(* Proofs/JsonDecodeP.v — C20: unmarshalling the token stream that mirrors a JSON document
   computes exactly the reference decoding semantics of Spec/JsonDecode.v (jdec), result and
   error class alike, for every target made of bool / integer / float / string / slice / struct /
   pointer positions.

   Method: partial correctness + totality.  [agrees j] says that at EVERY fuel the unmarshaller
   either runs out of fuel or returns what jdec prescribes ([le_res], from UnmarshalP.v); it is
   proved by induction on the document with no fuel arithmetic at all.  The explicit fuel bound
   [unm_total_bound] and fuel monotonicity [unm_fuel_mono] then give the stated equation. *)
From Coq Require Import Arith List.
From SbModel Require Import Spec.JsonDecode Proofs.UnmarshalP.
Import ListNotations.
Local Open Scope N_scope.

Lemma skip_open_arr d ts : skip_value d (T KArray VNone :: ts) = skip_value (S d) ts.
Proof. reflexivity. Qed.
Lemma skip_open_obj d ts : skip_value d (T KObject VNone :: ts) = skip_value (S d) ts.
Proof. reflexivity. Qed.
Lemma skip_end_arr d ts :
  skip_value (S d) (T KArrayEnd VNone :: ts) = match d with O => Ok ts | S _ => skip_value d ts end.
Proof. destruct d; reflexivity. Qed.
Lemma skip_end_obj d ts :
  skip_value (S d) (T KObjectEnd VNone :: ts) = match d with O => Ok ts | S _ => skip_value d ts end.
Proof. destruct d; reflexivity. Qed.
Lemma skip_key d s ts : skip_value (S d) (T KString (VStr s) :: ts) = skip_value (S d) ts.
Proof. reflexivity. Qed.

Lemma skip_value_mirror_gen : forall j d rest,
  skip_value d (mirror j ++ rest) = match d with O => Ok rest | S _ => skip_value d rest end.
Proof.
  induction j as [|x|s|s|items IH|members IH] using json_ind2; intros d rest; try reflexivity.
  - cbn [mirror app]. rewrite skip_open_arr, <- app_assoc.
    induction IH as [|x items Hx _ IHl]; cbn [flat_map app]; [apply skip_end_arr|].
    rewrite <- app_assoc, Hx. exact IHl.
  - cbn [mirror app]. rewrite skip_open_obj, <- app_assoc.
    induction IH as [|m members Hm _ IHl]; cbn [flat_map app]; [apply skip_end_obj|].
    rewrite skip_key, <- app_assoc, Hm. exact IHl.
Qed.

Lemma skip_value_mirror : forall j rest, skip_value 0 (mirror j ++ rest) = Ok rest.
Proof. intros j rest. apply (skip_value_mirror_gen j 0%nat rest). Qed.

Lemma skip_value_mirror_inner : forall j d rest,
  skip_value (S d) (mirror j ++ rest) = skip_value (S d) rest.
Proof. intros j d rest. apply (skip_value_mirror_gen j (S d) rest). Qed.

(* One unfolding of [jdec]: its item and member loops as top-level fixpoints. *)

Section JItems.
Variable dec : ty -> gval -> json -> res gval.
Variable e : ty.
Fixpoint jitems (l : list json) (acc : list gval) : res (list gval) :=
  match l with
  | [] => Ok acc
  | x :: r => bind (dec e (zero e) x) (fun v => jitems r (acc ++ [v]))
  end.

Lemma jitems_noof l : Forall (fun x => forall t cur, dec t cur x <> OutOfFuel) l ->
  forall acc, jitems l acc <> OutOfFuel.
Proof.
  induction 1 as [|x l Hx _ IH]; intros acc; cbn [jitems]; [discriminate|].
  apply bind_noof; [apply Hx|]. intros v _. apply IH.
Qed.
End JItems.

Section JMembers.
Variable dec : ty -> gval -> json -> res gval.
Variable o : copts.
Variable fs : list (bytes * bool * ty).
Variable depr : list bytes.
Fixpoint jmembers (l : list (bytes * json)) (vals : list gval) : res (list gval) :=
  match l with
  | [] => Ok vals
  | m :: r =>
      match find_field (fst m) fs 0 with
      | Some (i, ft) => bind (dec ft (nth i vals (zero ft)) (snd m)) (fun v => jmembers r (set_nth i v vals))
      | None => if strict o && negb (existsb (bytes_eqb (fst m)) depr) then Err EUnknownField else jmembers r vals
      end
  end.

Lemma jmembers_noof l : Forall (fun m => forall t cur, dec t cur (snd m) <> OutOfFuel) l ->
  forall vals, jmembers l vals <> OutOfFuel.
Proof.
  induction 1 as [|m l Hm _ IH]; intros vals; cbn [jmembers]; [discriminate|].
  destruct (find_field (fst m) fs 0) as [[i ft]|].
  - apply bind_noof; [apply Hm|]. intros v _. apply IH.
  - destruct (strict o && negb (existsb (bytes_eqb (fst m)) depr)); [discriminate|apply IH].
Qed.
End JMembers.

(* the content of a non-pointer position b holding cur0 after a non-null document *)
Definition jbase (pf : bytes -> N -> option N) (dec : ty -> gval -> json -> res gval) (o : copts)
    (b : ty) (cur0 : gval) (j : json) : res gval :=
  match j with
  | JArr items =>
      match underlying b with
      | TSlice e =>
          bind (jitems dec e items (items_of_gval cur0))
               (fun acc => Ok (GList (is_nil_container cur0 && match acc with [] => true | _ => false end) acc))
      | _ => Err (EMismatch KArray (rk_of b))
      end
  | JObj members =>
      match underlying b with
      | TStruct fs =>
          let vals0 := match cur0 with GStruct vs => vs | _ => map (fun fd => zero (snd fd)) fs end in
          bind (jmembers dec o fs (depr_of b) members vals0) (fun vals => Ok (GStruct vals))
      | _ => Err (EMismatch KObject (rk_of b))
      end
  | _ => jscalar pf b j
  end.

Lemma jdec_eq pf o t cur j n b : ptr_strip t = (n, b) -> j <> JNull ->
  jdec pf o t cur j =
  bind (jbase pf (jdec pf o) o b (match n with O => cur | S _ => zero b end) j) (fun v => Ok (wrap_ptr n v)).
Proof.
  intros Hps Hj.
  transitivity (let '(n, b) := ptr_strip t in
                bind (jbase pf (jdec pf o) o b (match n with O => cur | S _ => zero b end) j)
                     (fun v => Ok (wrap_ptr n v))).
  - destruct j; [congruence|reflexivity..].
  - rewrite Hps. reflexivity.
Qed.

Lemma jdec_null pf o t cur : jdec pf o t cur JNull = Ok cur.
Proof. reflexivity. Qed.

Lemma underlying_not_named t : forall n r d u, underlying t <> TNamed n r d u.
Proof. induction t; intros n' r' d' u'; cbn [underlying]; try discriminate. apply IHt. Qed.

Lemma jtarget_underlying t : jtarget (underlying t) = jtarget t.
Proof. induction t; cbn [jtarget underlying]; auto. Qed.

Lemma jtarget_pointee t e : jtarget t = true -> underlying t = TPtr e -> jtarget e = true.
Proof. intros Ht Hut. rewrite <- jtarget_underlying, Hut in Ht. exact Ht. Qed.

Lemma jtarget_not_time t : jtarget t = true -> underlying t <> TTime.
Proof. intros Ht Hut. rewrite <- jtarget_underlying, Hut in Ht. discriminate Ht. Qed.

Lemma ptr_strip_inv t : forall n b, ptr_strip t = (n, b) ->
  match n with
  | O => b = t /\ forall e, underlying t <> TPtr e
  | S n' => exists e, underlying t = TPtr e /\ ptr_strip e = (n', b)
  end.
Proof.
  assert (H : match ptr_strip t with
              | (O, b) => b = t /\ forall e, underlying t <> TPtr e
              | (S n', b) => exists e, underlying t = TPtr e /\ ptr_strip e = (n', b)
              end).
  { induction t; cbn [ptr_strip underlying]; try (split; [reflexivity|discriminate]).
    - destruct (ptr_strip t) as [n0 b0] eqn:Hps. exists t. split; [reflexivity|exact Hps].
    - destruct (ptr_strip t) as [[|n0] b0]; [|exact IHt]. split; [reflexivity|exact (proj2 IHt)]. }
  intros n b Hps. rewrite Hps in H. exact H.
Qed.

Lemma ptr_strip_ind (P : ty -> Prop) :
  (forall t e, P t -> underlying t = TPtr e -> P e) ->
  forall n t b, ptr_strip t = (n, b) -> P t -> P b.
Proof.
  intros Hstep. induction n as [|n IHn]; intros t b Hps Ht.
  - destruct (ptr_strip_inv t O b Hps) as [-> _]. exact Ht.
  - destruct (ptr_strip_inv t (S n) b Hps) as (e & Hut & Hpe). exact (IHn e b Hpe (Hstep t e Ht Hut)).
Qed.

Lemma bind_ok_id {A} (r : res A) : bind r (fun v => Ok v) = r.
Proof. destruct r; reflexivity. Qed.

Definition with_rest {A} (r : res A) (rest : list token) : res (A * list token) :=
  match r with Ok v => Ok (v, rest) | Err e => Err e | OutOfFuel => OutOfFuel end.

Lemma bind_with_rest_le {A B} (r1 : res (A * list token)) (r2 : res A) (rest' : list token)
    (k1 : A * list token -> res (B * list token)) (k2 : A -> res B) (rest : list token) :
  le_res r1 (with_rest r2 rest') ->
  (forall v, le_res (k1 (v, rest')) (with_rest (k2 v) rest)) ->
  le_res (bind r1 k1) (with_rest (bind r2 k2) rest).
Proof.
  intros [-> | ->] Hk; [left; reflexivity|].
  destruct r2 as [v|e|]; cbn [with_rest bind]; [apply Hk|right; reflexivity|left; reflexivity].
Qed.

(* the heads of the mirror of a non-null document *)
Inductive jhead : token -> Prop :=
| jh_bool x : jhead (T KBool (VBool x))
| jh_num s : jhead (T KLiteral (VStr s))
| jh_str s : jhead (T KString (VStr s))
| jh_arr : jhead (T KArray VNone)
| jh_obj : jhead (T KObject VNone).

Lemma jtarget_dispatched t :
  jtarget t = true -> (forall e, underlying t <> TPtr e) -> dispatched (underlying t) = true /\ underlying t <> TAny.
Proof.
  intros Hj Hp. split; [apply dispatched_intro; [apply jtarget_not_time, Hj|exact Hp]|].
  intros Hany. rewrite <- jtarget_underlying, Hany in Hj. discriminate Hj.
Qed.

Lemma ptr_step pf o R f t e cur tk0 rest :
  jhead tk0 -> underlying t = TPtr e ->
  unm pf (S f) o R t cur (tk0 :: rest) =
  bind (unm pf f o R e (zero e) (tk0 :: rest)) (fun r => Ok (GPtr (Some (fst r)), snd r)).
Proof.
  intros Hh Hut. apply unm_ptr; [exact Hut|..]; destruct Hh; try reflexivity; try (intros E; discriminate E).
  rewrite conv_tok_lit. apply (convert_literal_ptr pf t e), Hut.
Qed.

Lemma mirror_app_head x TL : exists tk ts,
  mirror x ++ TL = tk :: ts /\ (kind tk =? KArrayEnd) = false.
Proof. destruct x; cbn [mirror app]; eexists; eexists; split; reflexivity. Qed.

Section Main.
Variable pf : bytes -> N -> option N.
Variable o : copts.
Variable R : registry.

Definition agrees (j : json) : Prop :=
  forall f t cur rest, jtarget t = true ->
    le_res (unm pf f o R t cur (mirror j ++ rest)) (with_rest (jdec pf o t cur j) rest).

Lemma unm_key f name ts :
  le_res (unm pf f o R TString (GStr []) (T KString (VStr name) :: ts)) (Ok (GStr name, ts)).
Proof. destruct f as [|f]; [left; apply unm_O|right; apply unm_name]. Qed.

(* through the pointer levels of the target down to the position the document fills *)
Lemma ptr_levels j tk0 tl rest :
  j <> JNull -> jhead tk0 ->
  (forall f b cur, jtarget b = true -> (forall e, underlying b <> TPtr e) ->
     le_res (unm pf f o R b cur (tk0 :: tl)) (with_rest (jbase pf (jdec pf o) o b cur j) rest)) ->
  forall f t cur, jtarget t = true ->
    le_res (unm pf f o R t cur (tk0 :: tl)) (with_rest (jdec pf o t cur j) rest).
Proof.
  intros Hj Hh Hbase f t cur Ht. destruct (ptr_strip t) as [n b] eqn:Hps.
  rewrite (jdec_eq pf o t cur j n b Hps Hj). revert f t cur Ht Hps.
  induction n as [|n IHn]; intros f t cur Ht Hps.
  - destruct (ptr_strip_inv t O b Hps) as [-> Hp]. cbn [wrap_ptr]. rewrite bind_ok_id.
    apply Hbase; assumption.
  - destruct (ptr_strip_inv t (S n) b Hps) as (e & Hut & Hpe).
    destruct f as [|f]; [left; apply unm_O|].
    rewrite (ptr_step pf o R f t e cur tk0 tl Hh Hut).
    pose proof (IHn f e (zero e) (jtarget_pointee t e Ht Hut) Hpe) as IHe.
    (* the pointee is fresh: a pointer at the next level too, or the position itself *)
    replace (match n with O => zero e | S _ => zero b end) with (zero b) in IHe
      by (destruct n; [destruct (ptr_strip_inv e O b Hpe) as [-> _]|]; reflexivity).
    destruct IHe as [-> | ->]; [left; reflexivity|].
    destruct (jbase pf (jdec pf o) o b (zero b) j) as [v|er|]; cbn [bind with_rest fst snd wrap_ptr];
      [right; reflexivity|right; reflexivity|left; reflexivity].
Qed.

Lemma scalar_base f b cur tk0 rest (spec : res gval) :
  jtarget b = true -> (forall e, underlying b <> TPtr e) ->
  (forall tk, conv_tok pf b tk0 = Ok tk -> scalar_tok tk = true) ->
  spec = bind (conv_tok pf b tk0) (set_scalar b) ->
  le_res (unm pf f o R b cur (tk0 :: rest)) (with_rest spec rest).
Proof.
  intros Hj Hp Hs ->. destruct f as [|f]; [left; apply unm_O|]. right.
  rewrite unm_tail.
  destruct (conv_tok pf b tk0) as [tk|er|]; cbn [bind with_rest]; [|reflexivity|reflexivity].
  destruct (scalar_tok_plain tk (Hs tk eq_refl)) as [Hk Hv]. destruct (jtarget_dispatched b Hj Hp) as [Hd Ha].
  apply utail_set_scalar; assumption.
Qed.

Lemma slice_loop_mirror f e rest items :
  Forall agrees items -> jtarget e = true ->
  forall g acc,
    le_res (slice_loop (unm pf f o R) g e acc (flat_map mirror items ++ T KArrayEnd VNone :: rest))
           (with_rest (jitems (jdec pf o) e items acc) rest).
Proof.
  intros Hitems He. induction Hitems as [|x items Hx _ IH]; intros g acc;
    (destruct g as [|g]; [left; reflexivity|]).
  - right. reflexivity.
  - cbn [flat_map jitems]. rewrite <- app_assoc.
    destruct (mirror_app_head x (flat_map mirror items ++ T KArrayEnd VNone :: rest)) as (tk & ts & Heq & Hk).
    rewrite (slice_loop_step _ g e acc _ tk ts Heq Hk).
    apply bind_with_rest_le with (rest' := flat_map mirror items ++ T KArrayEnd VNone :: rest).
    + apply Hx. exact He.
    + intros v. cbn [fst snd]. apply IH.
Qed.

Lemma array_base f b cur items rest :
  Forall agrees items -> jtarget b = true -> (forall e, underlying b <> TPtr e) ->
  le_res (unm pf f o R b cur (T KArray VNone :: flat_map mirror items ++ T KArrayEnd VNone :: rest))
         (with_rest (jbase pf (jdec pf o) o b cur (JArr items)) rest).
Proof.
  intros Hitems Hj Hp. destruct f as [|f]; [left; apply unm_O|].
  rewrite unm_array_tok by (reflexivity || apply (jtarget_dispatched b Hj Hp)). unfold array_case, jbase.
  rewrite <- jtarget_underlying in Hj.
  destruct (underlying b); try discriminate Hj; try (right; reflexivity).
  apply bind_with_rest_le with (rest' := rest).
  - apply slice_loop_mirror; assumption.
  - intros v. right. reflexivity.
Qed.

Lemma find_field_jtarget name fs i0 i ft :
  forallb (fun fd => jtarget (snd fd)) fs = true -> find_field name fs i0 = Some (i, ft) -> jtarget ft = true.
Proof.
  intros Hfs Hff. apply find_field_In in Hff. apply in_map_iff in Hff. destruct Hff as (fd & <- & Hin).
  rewrite forallb_forall in Hfs. exact (Hfs fd Hin).
Qed.

Lemma struct_loop_mirror f fs depr rest members :
  Forall (fun m => agrees (snd m)) members ->
  forallb (fun fd => jtarget (snd fd)) fs = true ->
  forall g vals,
    le_res (struct_loop o (unm pf f o R) g fs depr vals
              (flat_map (fun m => T KString (VStr (fst m)) :: mirror (snd m)) members ++ T KObjectEnd VNone :: rest))
           (with_rest (jmembers (jdec pf o) o fs depr members vals) rest).
Proof.
  intros Hmem Hfs. induction Hmem as [|m members Hm _ IH]; intros g vals;
    (destruct g as [|g]; [left; reflexivity|]).
  - right. reflexivity.
  - cbn [flat_map app jmembers]. rewrite <- app_assoc.
    set (tl := flat_map _ members ++ T KObjectEnd VNone :: rest) in *.
    rewrite (struct_loop_step o _ g fs depr vals _ (T KString (VStr (fst m))) _ eq_refl eq_refl).
    destruct (unm_key f (fst m) (mirror (snd m) ++ tl)) as [-> | ->]; [left; reflexivity|].
    cbn [bind fst snd].
    destruct (find_field (fst m) fs 0) as [[i ft]|] eqn:Hff.
    + apply bind_with_rest_le with (rest' := tl).
      * apply Hm. eapply find_field_jtarget; eassumption.
      * intros v. apply IH.
    + destruct (strict o && negb (existsb (bytes_eqb (fst m)) depr)); [right; reflexivity|].
      rewrite skip_value_mirror. apply IH.
Qed.

Lemma object_base f b cur members rest :
  Forall (fun m => agrees (snd m)) members -> jtarget b = true -> (forall e, underlying b <> TPtr e) ->
  le_res (unm pf f o R b cur
            (T KObject VNone ::
             flat_map (fun m => T KString (VStr (fst m)) :: mirror (snd m)) members ++ T KObjectEnd VNone :: rest))
         (with_rest (jbase pf (jdec pf o) o b cur (JObj members)) rest).
Proof.
  intros Hmem Hj Hp. destruct f as [|f]; [left; apply unm_O|].
  rewrite unm_object_tok by (reflexivity || apply (jtarget_dispatched b Hj Hp)). unfold object_case, jbase.
  rewrite <- jtarget_underlying in Hj.
  destruct (underlying b); try discriminate Hj; try (right; reflexivity).
  apply bind_with_rest_le with (rest' := rest).
  - apply struct_loop_mirror; assumption.
  - intros v. right. reflexivity.
Qed.

Theorem agrees_all : forall j, agrees j.
Proof.
  induction j as [|x|s|s|items IH|members IH] using json_ind2; intros f t cur rest Ht.
  - cbn [mirror app]. rewrite jdec_null. destruct f as [|f]; [left; apply unm_O|]. right.
    rewrite nil_leaves_untouched by (apply jtarget_not_time; exact Ht). reflexivity.
  - apply ptr_levels; [discriminate|constructor| |exact Ht].
    intros f' b cur' Hj Hp. apply scalar_base; [exact Hj|exact Hp| |reflexivity].
    intros tk [= <-]. reflexivity.
  - apply ptr_levels; [discriminate|constructor| |exact Ht].
    intros f' b cur' Hj Hp. apply scalar_base; [exact Hj|exact Hp| |reflexivity].
    intros tk Hc. destruct (convert_literal_cases pf b s tk Hc) as [(e & He & _)|[_ H]]; [contradiction (Hp e He)|exact H].
  - apply ptr_levels; [discriminate|constructor| |exact Ht].
    intros f' b cur' Hj Hp. apply scalar_base; [exact Hj|exact Hp| |reflexivity].
    intros tk [= <-]. reflexivity.
  - cbn [mirror app]. rewrite <- app_assoc.
    apply ptr_levels; [discriminate|constructor| |exact Ht].
    intros f' b cur' Hj Hp. apply array_base; assumption.
  - cbn [mirror app]. rewrite <- app_assoc.
    apply ptr_levels; [discriminate|constructor| |exact Ht].
    intros f' b cur' Hj Hp. apply object_base; assumption.
Qed.

End Main.

Lemma convert_literal_noof pf t s : convert_literal pf t s <> OutOfFuel.
Proof. exact (conv_tok_noof pf t (T KLiteral (VStr s))). Qed.

Lemma jdec_never_out_of_fuel : forall pf o t cur j, jdec pf o t cur j <> OutOfFuel.
Proof.
  intros pf o t cur j. revert t cur.
  induction j as [|x|s|s|items IH|members IH] using json_ind2; intros t cur; [discriminate|..].
  all: destruct (ptr_strip t) as [n b] eqn:Hps; rewrite (jdec_eq pf o t cur _ n b Hps) by discriminate.
  all: apply bind_noof; [|discriminate]; cbn [jbase jscalar].
  - apply set_scalar_noof.
  - apply bind_noof; [apply convert_literal_noof|]. intros tk _. apply set_scalar_noof.
  - apply set_scalar_noof.
  - destruct (underlying b); try discriminate.
    apply bind_noof; [apply jitems_noof; exact IH|discriminate].
  - destruct (underlying b); try discriminate.
    apply bind_noof; [apply jmembers_noof; exact IH|discriminate].
Qed.

(* the equation at every fuel from the explicit bound of unm_total_bound on *)
Lemma unm_mirror_jdec_bound : forall pf o R t cur j rest f,
  jtarget t = true ->
  (length (mirror j ++ rest) * S (reg_depth R) + ty_depth t + 1 <= f)%nat ->
  unm pf f o R t cur (mirror j ++ rest) =
  match jdec pf o t cur j with Ok v => Ok (v, rest) | Err e => Err e | OutOfFuel => OutOfFuel end.
Proof.
  intros pf o R t cur j rest f Ht Hf.
  pose proof (unm_total_bound pf o R t cur (mirror j ++ rest)) as Hne.
  destruct (agrees_all pf o R j (length (mirror j ++ rest) * S (reg_depth R) + ty_depth t + 1)%nat
              t cur rest Ht) as [H|H]; [contradiction|].
  rewrite H in Hne. exact (unm_fuel_mono pf o R _ t cur _ _ H Hne f Hf).
Qed.

Theorem unm_mirror_jdec : forall pf o R t cur j rest,
  jtarget t = true ->
  exists f0, forall f, (f0 <= f)%nat ->
    unm pf f o R t cur (mirror j ++ rest) =
    match jdec pf o t cur j with Ok v => Ok (v, rest) | Err e => Err e | OutOfFuel => OutOfFuel end.
Proof.
  intros pf o R t cur j rest Ht. eexists. intros f Hf. apply unm_mirror_jdec_bound; eassumption.
Qed.

Corollary unm_mirror_jdec_doc : forall pf o R t j,
  jtarget t = true ->
  exists f0, forall f, (f0 <= f)%nat ->
    unm pf f o R t (zero t) (mirror j) =
    match jdec pf o t (zero t) j with Ok v => Ok (v, []) | Err e => Err e | OutOfFuel => OutOfFuel end.
Proof.
  intros pf o R t j Ht. eexists. intros f Hf.
  rewrite <- (app_nil_r (mirror j)). apply unm_mirror_jdec_bound; eassumption.
Qed.

(* success and failure halves, for use without a match in the conclusion *)
Corollary unm_mirror_jdec_ok : forall pf o R t cur j rest v,
  jtarget t = true -> jdec pf o t cur j = Ok v ->
  exists f0, forall f, (f0 <= f)%nat -> unm pf f o R t cur (mirror j ++ rest) = Ok (v, rest).
Proof.
  intros pf o R t cur j rest v Ht Hd. eexists. intros f Hf.
  rewrite unm_mirror_jdec_bound, Hd by eassumption. reflexivity.
Qed.

Corollary unm_mirror_jdec_err : forall pf o R t cur j rest e,
  jtarget t = true -> jdec pf o t cur j = Err e ->
  exists f0, forall f, (f0 <= f)%nat -> unm pf f o R t cur (mirror j ++ rest) = Err e.
Proof.
  intros pf o R t cur j rest e Ht Hd. eexists. intros f Hf.
  rewrite unm_mirror_jdec_bound, Hd by eassumption. reflexivity.
Qed.

Definition ex_pf : bytes -> N -> option N := fun _ _ => None.

(* struct { A int8; B []*int16; C string } *)
Definition ex_ty : ty :=
  TStruct [([65], true, TInt W8); ([66], true, TSlice (TPtr (TInt W16))); ([67], true, TString)].

(* {"A": 5, "X": [1, [2, "x"]], "B": [7, null, -3], "C": "hi", "A": 12, "C": null} *)
Definition ex_doc : json :=
  JObj [([65], JNum [53]);
        ([88], JArr [JNum [49]; JArr [JNum [50]; JStr [120]]]);
        ([66], JArr [JNum [55]; JNull; JNum [45; 51]]);
        ([67], JStr [104; 105]);
        ([65], JNum [49; 50]);
        ([67], JNull)].

Definition ex_val : gval :=
  GStruct [GInt 12;
           GList false [GPtr (Some (GInt 7)); GPtr None; GPtr (Some (GInt (-3)))];
           GStr [104; 105]].

Example ex_jtarget : jtarget ex_ty = true.
Proof. reflexivity. Qed.

Example ex_unm_ok : unm ex_pf 200 default_opts [] ex_ty (zero ex_ty) (mirror ex_doc) = Ok (ex_val, []).
Proof. vm_compute. reflexivity. Qed.

Example ex_jdec_ok : jdec ex_pf default_opts ex_ty (zero ex_ty) ex_doc = Ok ex_val.
Proof. vm_compute. reflexivity. Qed.

(* the unknown member is rejected under the strict option, by both *)
Example ex_unm_strict :
  unm ex_pf 200 (Opts false true false) [] ex_ty (zero ex_ty) (mirror ex_doc) = Err EUnknownField.
Proof. vm_compute. reflexivity. Qed.

Example ex_jdec_strict :
  jdec ex_pf (Opts false true false) ex_ty (zero ex_ty) ex_doc = Err EUnknownField.
Proof. vm_compute. reflexivity. Qed.

(* {"A": 300}: 300 does not fit an int8 *)
Definition ex_doc_bad : json := JObj [([65], JNum [51; 48; 48])].

Example ex_unm_bad : unm ex_pf 200 default_opts [] ex_ty (zero ex_ty) (mirror ex_doc_bad) = Err EParse.
Proof. vm_compute. reflexivity. Qed.

Example ex_jdec_bad : jdec ex_pf default_opts ex_ty (zero ex_ty) ex_doc_bad = Err EParse.
Proof. vm_compute. reflexivity. Qed.

Print Assumptions skip_value_mirror.
Print Assumptions unm_mirror_jdec.
Print Assumptions unm_mirror_jdec_doc.
Print Assumptions jdec_never_out_of_fuel.
