(* Proofs/ConformP.v — C05: the declarative relation [Conforms] (Spec/ConformSpec.v) holds exactly
   when the executable unmarshaller [unm] succeeds, with the same value and the same rest.  Text in
   double quotes is the statement of C05 in properties.jsonl.
     the equivalence      Section Complete, [conforms_complete]; [ev], Section Sound ([sound_all]),
                          [conforms_sound]; [unm_ok_iff_conforms]
     fuel, errors         [fuel_bound], [conforms_iff_bound], [conforms_functional],
                          [conforms_fuel_independent], [unm_err_iff_not_conforms], [conforms_consumes]
     scalars              [scalar_conforms_iff], [wf_scalar_kind]
     mismatch reports     [mismatch_reported], [mismatch_reported_time], [mismatch_reported_structural]
     errors from inside   [ArrPrefix], [arr_loop_error], [array_error_propagates]; [FieldsPrefix],
                          [struct_loop_error], [field_error_propagates]; [array_item_mismatch_reported]
     examples             [conforms_struct_ex] .. [scalar_conforms_iff_ex]
     edges (1)-(6)        [ill_shaped_scalar_edge] .. [pointer_fresh_pointee_edge] *)
From Coq Require Import List NArith ZArith Bool Lia ZifyBool ZifyNat ZifyN Arith.
From SbModel Require Import Proofs.CodecP Spec.Conform Spec.ConformSpec Proofs.MarshalP Proofs.UnmarshalP.
Import ListNotations.
Local Open Scope N_scope.

Lemma not_concrete_cases t : concrete_target t = false ->
  underlying t = TAny \/ exists e, underlying t = TPtr e.
Proof.
  unfold concrete_target. induction t; cbn [ptr_base underlying]; try discriminate; intros H.
  - right. eexists. reflexivity.
  - left. reflexivity.
  - apply IHt, H.
Qed.

Lemma any_not_concrete t : underlying t = TAny -> concrete_target t = false.
Proof.
  unfold concrete_target. induction t; cbn [ptr_base underlying]; try discriminate; intros H.
  - reflexivity.
  - apply IHt, H.
Qed.

Lemma conforms_string pf o R t cur ts v rest :
  Conforms pf o R t cur ts v rest -> t = TString -> (exists s, cur = GStr s) -> exists s, v = GStr s.
Proof. induction 1; intros -> Hcur; cbn [underlying] in *; try congruence; eauto. Qed.

(* "complete" and "sound" are said of the relation, with [unm] as the reference.  Complete: whatever [unm]
   returns with [Ok], [Conforms] derives; one lemma per loop and per [*_case] of Proofs/UnmarshalP.v, the
   recursive call [rec] being assumed complete. *)
Section Complete.
Variable pf : bytes -> N -> option N.
Variable o : copts.
Variable R : registry.
Variable rec : rec_t.
Hypothesis Hrec : forall t cur ts v rest, rec t cur ts = Ok (v, rest) -> Conforms pf o R t cur ts v rest.

Ltac end_token Hk tk :=
  apply N.eqb_eq in Hk; destruct tk as [?k ?x]; cbn [kind] in Hk; subst.

Lemma arr_loop_complete : forall g e items idx ts items' rest,
  arr_loop rec g e items idx ts = Ok (items', rest) -> ConformsArr pf o R e items idx ts items' rest.
Proof.
  induction g as [|g IH]; intros e items idx ts items' rest; cbn [arr_loop]; [discriminate|].
  destruct ts as [|tk ts].
  { destruct (Nat.leb (length items) idx); [discriminate|]. destruct (rec _ _ _); cbn [bind]; discriminate. }
  destruct (kind tk =? KArrayEnd) eqn:Hk.
  { intros [= <- <-]. end_token Hk tk. apply CA_end. }
  destruct (Nat.leb (length items) idx) eqn:Hl; [discriminate|].
  intros H. apply bind_ok in H. destruct H as ([v ts1] & Hr & H). cbn [fst snd] in H.
  eapply CA_item; [apply N.eqb_neq; exact Hk|apply Nat.leb_gt; exact Hl|apply Hrec; exact Hr|apply IH; exact H].
Qed.

Lemma slice_loop_complete : forall g e acc ts r rest,
  slice_loop rec g e acc ts = Ok (r, rest) ->
  exists items, r = acc ++ items /\ ConformsSeq pf o R KArrayEnd e ts items rest.
Proof.
  induction g as [|g IH]; intros e acc ts r rest; cbn [slice_loop]; [discriminate|].
  destruct ts as [|tk ts].
  { destruct (rec _ _ _); cbn [bind]; discriminate. }
  destruct (kind tk =? KArrayEnd) eqn:Hk.
  { intros [= <- <-]. end_token Hk tk. exists []. split; [symmetry; apply app_nil_r|apply CS_end]. }
  intros H. apply bind_ok in H. destruct H as ([v ts1] & Hr & H). cbn [fst snd] in H.
  destruct (IH _ _ _ _ _ H) as (items & -> & Hi).
  exists (v :: items). split; [rewrite <- app_assoc; reflexivity|].
  eapply CS_item; [apply N.eqb_neq; exact Hk|apply Hrec; exact Hr|exact Hi].
Qed.

Lemma struct_loop_complete : forall g fs depr vals ts vals' rest,
  struct_loop o rec g fs depr vals ts = Ok (vals', rest) ->
  ConformsFields pf o R fs depr vals ts vals' rest.
Proof.
  induction g as [|g IH]; intros fs depr vals ts vals' rest; cbn [struct_loop]; [discriminate|].
  destruct ts as [|tk ts]; [discriminate|].
  destruct (kind tk =? KObjectEnd) eqn:Hk.
  { intros [= <- <-]. end_token Hk tk. apply CF_end. }
  apply N.eqb_neq in Hk.
  intros H. apply bind_ok in H. destruct H as ([nv ts1] & Hn & H). cbn [fst snd] in H.
  apply Hrec in Hn. destruct (conforms_string _ _ _ _ _ _ _ _ Hn eq_refl (ex_intro _ _ eq_refl)) as (name & ->).
  destruct (find_field name fs 0) as [[i ft]|] eqn:Hf.
  - apply bind_ok in H. destruct H as ([v ts2] & Hv & H). cbn [fst snd] in H.
    eapply CF_field; [exact Hk|exact Hn|exact Hf|apply Hrec; exact Hv|apply IH; exact H].
  - destruct (strict o && negb (existsb (bytes_eqb name) depr)) eqn:Hs; [discriminate|].
    apply bind_ok in H. destruct H as (ts2 & Hsk & H).
    eapply CF_skip; [exact Hk|exact Hn|exact Hf| |exact Hsk|apply IH; exact H].
    intros Hst. rewrite Hst in Hs. apply negb_false_iff in Hs. exact Hs.
Qed.

Lemma newstruct_loop_complete : forall g fs vals ts v rest,
  newstruct_loop rec g fs vals ts = Ok (v, rest) ->
  ConformsNewStruct pf o R fs vals ts v rest.
Proof.
  induction g as [|g IH]; intros fs vals ts v rest; cbn [newstruct_loop]; [discriminate|].
  destruct ts as [|tk ts]; [discriminate|].
  destruct (kind tk =? KObjectEnd) eqn:Hk.
  { intros [= <- <-]. end_token Hk tk. apply CN_end. }
  apply N.eqb_neq in Hk.
  intros H. apply bind_ok in H. destruct H as ([nv ts1] & Hn & H). cbn [fst snd] in H.
  apply Hrec in Hn. destruct (conforms_string _ _ _ _ _ _ _ _ Hn eq_refl (ex_intro _ _ eq_refl)) as (name & ->).
  destruct (negb (is_exported_ident name)) eqn:Hx; [discriminate|]. apply negb_false_iff in Hx.
  destruct (existsb (fun fd => bytes_eqb (fname fd) name) fs) eqn:Hd; [discriminate|].
  apply bind_ok in H. destruct H as ([fv ts2] & Hv & H). cbn [fst snd] in H.
  destruct fv as [| | | | | | | | | | |[[vt x]|]| |]; try discriminate.
  eapply CN_field; [exact Hk|exact Hn|exact Hx|exact Hd|apply Hrec; exact Hv|apply IH; exact H].
Qed.

Lemma map_loop_complete : forall g kt vt isnil m ts v rest,
  map_loop rec g kt vt isnil m ts = Ok (v, rest) ->
  ConformsEntries pf o R kt vt isnil m ts v rest.
Proof.
  induction g as [|g IH]; intros kt vt isnil m ts v rest; cbn [map_loop]; [discriminate|].
  destruct ts as [|tk ts].
  { destruct (rec _ _ _); cbn [bind]; discriminate. }
  destruct (kind tk =? KMapEnd) eqn:Hk.
  { intros [= <- <-]. end_token Hk tk. apply CM_end. }
  apply N.eqb_neq in Hk.
  intros H. apply bind_ok in H. destruct H as ([k ts1] & Hkr & H). cbn [fst snd] in H.
  destruct (negb (comparable_val (iface_key kt k))) eqn:Hc; [discriminate|]. apply negb_false_iff in Hc.
  apply bind_ok in H. destruct H as ([x ts2] & Hv & H). cbn [fst snd] in H.
  eapply CM_entry; [exact Hk|apply Hrec; exact Hkr|exact Hc|apply Hrec; exact Hv|apply IH; exact H].
Qed.

Lemma genmap_loop_complete : forall g m ts v rest,
  genmap_loop rec g m ts = Ok (v, rest) ->
  ConformsGenEntries pf o R m ts v rest.
Proof.
  induction g as [|g IH]; intros m ts v rest; cbn [genmap_loop]; [discriminate|].
  destruct ts as [|tk ts]; [discriminate|].
  destruct (kind tk =? KMapEnd) eqn:Hk.
  { intros [= <- <-]. end_token Hk tk. apply CG_end. }
  apply N.eqb_neq in Hk.
  intros H. apply bind_ok in H. destruct H as ([k ts1] & Hkr & H). cbn [fst snd] in H.
  destruct (to_comparable k) as [| | | | | | | | | | |[[kt kv]|]| |] eqn:Hkey; try discriminate.
  destruct (negb (comparable_ty kt)) eqn:Hc; [discriminate|]. apply negb_false_iff in Hc.
  fold (nan_key kv) in H. destruct (nan_key kv) eqn:Hnan; [discriminate|].
  apply bind_ok in H. destruct H as ([x ts2] & Hv & H). cbn [fst snd] in H.
  eapply CG_entry; [exact Hk|apply Hrec; exact Hkr|exact Hkey|exact Hc|exact Hnan|apply Hrec; exact Hv|].
  rewrite Hkey. apply IH. exact H.
Qed.

Lemma tuple_loop_grows : forall g outs tys vals ts outs' vals' tys' rest,
  tuple_loop rec g outs tys vals ts = Ok (outs', vals', tys', rest) -> (length vals <= length vals')%nat.
Proof.
  induction g as [|g IH]; intros outs tys vals ts outs' vals' tys' rest; cbn [tuple_loop]; [discriminate|].
  destruct ts as [|tk ts]; [discriminate|].
  destruct (kind tk =? KTupleEnd); [intros [= _ <- _ _]; lia|].
  destruct outs as [|ot outs2]; intros H; apply bind_ok in H; destruct H as ([v ts1] & _ & H);
    apply IH in H; rewrite app_length in H; cbn [length] in H; lia.
Qed.

(* a func target: the loop ends with every declared result filled and nothing more *)
Lemma tuple_loop_complete : forall g outs tys vals ts vals' tys' rest,
  tuple_loop rec g outs tys vals ts = Ok ([], vals', tys', rest) ->
  length vals' = (length vals + length outs)%nat ->
  exists items, vals' = vals ++ items /\ ConformsOuts pf o R outs ts items rest.
Proof.
  induction g as [|g IH]; intros outs tys vals ts vals' tys' rest; cbn [tuple_loop]; [discriminate|].
  destruct ts as [|tk ts]; [discriminate|].
  destruct (kind tk =? KTupleEnd) eqn:Hk.
  { intros [= -> <- _ <-] _. end_token Hk tk. exists []. split; [symmetry; apply app_nil_r|apply CO_end]. }
  apply N.eqb_neq in Hk.
  destruct outs as [|ot outs2]; intros H Hlen; apply bind_ok in H; destruct H as ([v ts1] & Hr & H); cbn [fst snd] in H.
  - apply tuple_loop_grows in H. rewrite app_length in H. cbn [length] in H, Hlen. clear - H Hlen. lia.
  - destruct (IH _ _ _ _ _ _ _ H) as (items & -> & Hi).
    { rewrite app_length. cbn [length] in *. lia. }
    exists (v :: items). split; [rewrite <- app_assoc; reflexivity|].
    eapply CO_item; [exact Hk|apply Hrec; exact Hr|exact Hi].
Qed.

(* an interface target: every value is decoded as an interface *)
Lemma tuple_loop_any_complete : forall g tys vals ts outs' vals' tys' rest,
  tuple_loop rec g [] tys vals ts = Ok (outs', vals', tys', rest) ->
  exists items, vals' = vals ++ map dyn_val items /\ tys' = tys ++ map dyn_ty items /\
                ConformsSeq pf o R KTupleEnd TAny ts items rest.
Proof.
  induction g as [|g IH]; intros tys vals ts outs' vals' tys' rest; cbn [tuple_loop]; [discriminate|].
  destruct ts as [|tk ts]; [discriminate|].
  destruct (kind tk =? KTupleEnd) eqn:Hk.
  { intros [= _ <- <- <-]. end_token Hk tk. exists []. cbn [map]. rewrite !app_nil_r. repeat split. apply CS_end. }
  apply N.eqb_neq in Hk.
  intros H. apply bind_ok in H. destruct H as ([v ts1] & Hr & H). cbn [fst snd] in H.
  destruct (IH _ _ _ _ _ _ _ H) as (items & -> & -> & Hi).
  exists (v :: items). cbn [map]. rewrite <- !app_assoc. repeat split.
  eapply CS_item; [exact Hk|apply Hrec; exact Hr|exact Hi].
Qed.

Lemma nan_case_complete t cur x rest v rest' :
  nan_case t (underlying t) KNaN rest = Ok (v, rest') -> Conforms pf o R t cur (T KNaN x :: rest) v rest'.
Proof.
  unfold nan_case. destruct (underlying t) eqn:Hu; try discriminate; intros [= <- <-].
  - apply C_nan32, Hu.
  - apply C_nan64, Hu.
  - apply A_nan, Hu.
Qed.

Lemma bytes_case_complete t cur x rest v rest' :
  bytes_case t (underlying t) cur (T KBytes x) rest = Ok (v, rest') ->
  Conforms pf o R t cur (T KBytes x :: rest) v rest'.
Proof.
  unfold bytes_case. cbn [val]. destruct (underlying t) eqn:Hu; try discriminate; destruct x as [| | | | | | | |s]; try discriminate.
  - intros [= <- <-]. apply C_bytes, Hu.
  - destruct (Nat.ltb n (length s)) eqn:Hlt; [discriminate|]. apply Nat.ltb_ge in Hlt.
    intros [= <- <-]. rewrite firstn_all2 by exact Hlt. apply (C_bytes_array _ _ _ _ n); assumption.
  - intros [= <- <-]. apply A_bytes, Hu.
Qed.

Lemma array_case_complete t cur x rest v rest' :
  array_case rec t (underlying t) cur KArray rest = Ok (v, rest') ->
  Conforms pf o R t cur (T KArray x :: rest) v rest'.
Proof.
  unfold array_case.
  destruct (underlying t) eqn:Hu; try discriminate; intros H; apply bind_ok in H; destruct H as ([items r] & Hl & H);
    cbn [fst snd] in H; injection H as <- <-.
  - destruct (slice_loop_complete _ _ _ _ _ _ Hl) as (its & -> & Hi). apply C_slice_bytes; assumption.
  - apply arr_loop_complete in Hl. eapply C_array_bytes; eassumption.
  - apply arr_loop_complete in Hl. eapply C_array; eassumption.
  - destruct (slice_loop_complete _ _ _ _ _ _ Hl) as (its & -> & Hi). eapply C_slice; eassumption.
  - destruct (slice_loop_complete _ _ _ _ _ _ Hl) as (its & -> & Hi). apply A_array; assumption.
Qed.

Lemma object_case_complete t cur x rest v rest' :
  object_case o rec t (underlying t) cur KObject rest = Ok (v, rest') ->
  Conforms pf o R t cur (T KObject x :: rest) v rest'.
Proof.
  unfold object_case. destruct (underlying t) eqn:Hu; try discriminate; intros H.
  - apply bind_ok in H. destruct H as ([vals r] & Hl & H). cbn [fst snd] in H. injection H as <- <-.
    apply struct_loop_complete in Hl. eapply C_struct; [exact Hu|exact Hl].
  - apply newstruct_loop_complete in H. apply A_object; assumption.
Qed.

Lemma map_case_complete t cur x rest v rest' :
  map_case rec t (underlying t) cur KMap rest = Ok (v, rest') ->
  Conforms pf o R t cur (T KMap x :: rest) v rest'.
Proof.
  unfold map_case. destruct (underlying t) eqn:Hu; try discriminate; intros H.
  - eapply C_map; [exact Hu|]. destruct cur; apply map_loop_complete with (1 := H).
  - apply genmap_loop_complete in H. apply A_map; assumption.
Qed.

Lemma tuple_case_complete t cur x rest v rest' :
  tuple_case rec t (underlying t) KTuple rest = Ok (v, rest') ->
  Conforms pf o R t cur (T KTuple x :: rest) v rest'.
Proof.
  unfold tuple_case.
  destruct (underlying t) eqn:Hu; try discriminate; intros H; apply bind_ok in H;
    destruct H as ([[[outs' vals] tys] r] & Hl & H).
  - destruct (tuple_loop_any_complete _ _ _ _ _ _ _ _ Hl) as (items & -> & -> & Hi). cbn [app] in H.
    destruct (Nat.ltb 50 (length (map dyn_val items))) eqn:H50; [discriminate|]. injection H as <- <-.
    apply Nat.ltb_ge in H50. rewrite map_length in H50. apply A_tuple; assumption.
  - destruct outs' as [|? ?]; [|discriminate].
    destruct (Nat.ltb 50 (length vals)) eqn:H50; [discriminate|]. apply Nat.ltb_ge in H50.
    destruct (Nat.eqb (length vals) (length outs)) eqn:Hlen; [|discriminate].
    apply Nat.eqb_eq in Hlen. injection H as <- <-.
    destruct (tuple_loop_complete _ _ _ _ _ _ _ _ Hl Hlen) as (items & -> & Hi).
    eapply C_func; [exact Hu|lia|exact Hi].
Qed.

Lemma typename_case_complete t cur x rest v rest' :
  underlying t = TAny ->
  typename_case R rec t TAny cur (T KTypeName x) rest = Ok (v, rest') ->
  Conforms pf o R t cur (T KTypeName x :: rest) v rest'.
Proof.
  intros Hu. unfold typename_case. cbn [val].
  destruct x as [| | | | | | |name|];
    try (intros H; apply A_typename_unknown; [exact Hu|discriminate|apply Hrec; exact H]).
  destruct (reg_lookup R name) as [rt|] eqn:Hrt; intros H.
  - apply bind_ok in H. destruct H as ([v' r] & Hr & H). cbn [fst snd] in H. injection H as <- <-.
    apply A_typename_registered; [exact Hu|exact Hrt|apply Hrec; exact Hr].
  - apply A_typename_unknown; [exact Hu| |apply Hrec; exact H]. intros n [= <-]. exact Hrt.
Qed.

Lemma set_scalar_complete t cur tk rest v :
  plain_kind (kind tk) = true -> set_scalar t tk = Ok v -> Conforms pf o R t cur (tk :: rest) v rest.
Proof.
  intros Hp. rewrite set_scalar_matches. destruct (tok_matches t tk) eqn:Hm; [|discriminate].
  revert Hm. unfold tok_matches, any_of_token. destruct tk as [k x]. cbn [kind val] in *.
  destruct x; try discriminate; (destruct (underlying t) eqn:Hu; try discriminate); intros Hm [= <-].
  - apply C_bool; assumption.
  - apply width_eqb_true in Hm. subst w0. apply C_int; assumption.
  - apply width_eqb_true in Hm. subst w0. apply C_uint; assumption.
  - apply C_uintptr; assumption.
  - apply C_f32; assumption.
  - apply C_f64; assumption.
  - apply N.eqb_eq in Hm. subst k. apply C_string; assumption.
Qed.

Lemma scalar_case_complete t cur tk rest v rest' :
  plain_kind (kind tk) = true -> scalar_case t (underlying t) tk rest = Ok (v, rest') ->
  Conforms pf o R t cur (tk :: rest) v rest'.
Proof.
  intros Hp H.
  assert (Hx : val tk <> VNone) by (intros E; unfold scalar_case in H; rewrite E in H; discriminate H).
  rewrite scalar_case_plain in H by assumption. destruct (underlying t) eqn:Hu.
  (* goal 15 is [TAny], the fifteenth constructor of [ty] *)
  15: { destruct (any_of_token tk) as [d|] eqn:Hd; [|discriminate]. injection H as <- <-. apply A_scalar; assumption. }
  all: apply bind_ok in H; destruct H as (v0 & Hs & [= <- <-]); apply set_scalar_complete; assumption.
Qed.

Lemma dispatch_complete t cur tk rest v rest' :
  dispatched (underlying t) = true ->
  (kind tk =? KNil) = false -> is_end_kind (kind tk) = false -> (kind tk =? KLiteral) = false ->
  (kind tk = KTypeName -> concrete_target t = false) ->
  dispatch o R rec t (underlying t) cur tk rest = Ok (v, rest') ->
  Conforms pf o R t cur (tk :: rest) v rest'.
Proof.
  intros Hd Hnil Hend Hlit Htn. destruct tk as [k x]. cbn [kind] in *.
  destruct (kind_cases k) as [Hp|Hin].
  { rewrite dispatch_plain by exact Hp. apply scalar_case_complete, Hp. }
  unfold structural_kinds in Hin. cbn [In] in Hin. repeat (destruct Hin as [<-|Hin]); try discriminate.
  - apply nan_case_complete.
  - apply bytes_case_complete.
  - apply array_case_complete.
  - apply object_case_complete.
  - apply map_case_complete.
  - apply tuple_case_complete.
  - destruct (not_concrete_cases t (Htn eq_refl)) as [Ha|(e & He)]; [|rewrite He in Hd; discriminate Hd].
    rewrite Ha. apply typename_case_complete, Ha.
  - unfold dispatch, scalar_case. cbn. destruct x; discriminate.
  - contradiction.
Qed.

Lemma time_case_complete t cur tk rest v rest' :
  underlying t = TTime -> time_case tk rest = Ok (v, rest') -> Conforms pf o R t cur (tk :: rest) v rest'.
Proof.
  intros Hu. unfold time_case. destruct tk as [k x]. cbn [kind val].
  destruct (k =? KString) eqn:Hk; [|discriminate]. apply N.eqb_eq in Hk. subst k.
  destruct x as [| | | | | | |s|]; try discriminate. destruct (valid_time_enc s) eqn:Hv; [|discriminate].
  intros [= <- <-]. apply C_time; assumption.
Qed.

Lemma utail_complete t cur tk rest v rest' :
  ((kind tk =? KLiteral) = false \/ exists e, underlying t = TPtr e) ->
  utail o R rec t cur tk rest = Ok (v, rest') -> Conforms pf o R t cur (tk :: rest) v rest'.
Proof.
  intros Hlit.
  destruct ((kind tk =? KTypeName) && concrete_target t) eqn:Hskip.
  { apply andb_true_iff in Hskip. destruct Hskip as [Hk Hc]. end_token Hk tk.
    rewrite utail_skip by (reflexivity || exact Hc). intros H. apply C_typename_skip; [exact Hc|apply Hrec; exact H]. }
  assert (Htn : kind tk = KTypeName -> concrete_target t = false).
  { intros E. rewrite E in Hskip. exact Hskip. }
  destruct (target_cases (underlying t)) as [Hu|Hu].
  { rewrite utail_time by assumption. apply time_case_complete, Hu. }
  assert (Ht : underlying t <> TTime).
  { destruct Hu as [(e & ->)|Hd]; [discriminate|apply dispatched_not_time, Hd]. }
  rewrite utail_noskip, (is_time_false _ Ht) by exact Htn.
  destruct (kind tk =? KNil) eqn:Hnil.
  { end_token Hnil tk. intros [= <- <-]. apply C_nil, Ht. }
  destruct (is_end_kind (kind tk)) eqn:Hend; [discriminate|].
  destruct Hu as [(e & Hu)|Hd].
  - rewrite Hu. intros H. apply bind_ok in H. destruct H as ([v' r] & Hr & H). cbn [fst snd] in H. injection H as <- <-.
    eapply C_ptr; [exact Hu|apply N.eqb_neq; exact Hnil|exact Htn|apply Hrec; exact Hr].
  - rewrite ptr_or_dispatch_dispatched by exact Hd. apply dispatch_complete; try assumption.
    destruct Hlit as [Hl|(e & He)]; [exact Hl|rewrite He in Hd; discriminate Hd].
Qed.

Lemma ustep_complete t cur ts v rest :
  ustep pf o R rec t cur ts = Ok (v, rest) -> Conforms pf o R t cur ts v rest.
Proof.
  destruct ts as [|tk0 ts].
  { unfold ustep. destruct (underlying t); discriminate. }
  rewrite ustep_tail. destruct (kind tk0 =? KLiteral) eqn:El.
  - end_token El tk0. destruct x; try discriminate. rewrite conv_tok_lit.
    intros H. apply bind_ok in H. destruct H as (tk & Hc & H).
    destruct (convert_literal_cases pf _ _ _ Hc) as [(e & He & ->)|[Hnp Hk]]; [|apply scalar_tok_nonlit in Hk].
    + apply utail_complete; [right; eexists; exact He|exact H].
    + eapply C_literal; [exact Hnp|exact Hc|]. apply utail_complete; [left; exact Hk|exact H].
  - rewrite conv_tok_nonlit by exact El. apply utail_complete. left. exact El.
Qed.

End Complete.

Theorem conforms_complete pf o R : forall f t cur ts v rest,
  unm pf f o R t cur ts = Ok (v, rest) -> Conforms pf o R t cur ts v rest.
Proof.
  induction f as [|f IH]; intros t cur ts v rest; [rewrite unm_O; discriminate|].
  rewrite unm_S. apply ustep_complete. exact IH.
Qed.

Scheme Conforms_mind := Minimality for Conforms Sort Prop
  with ConformsArr_mind := Minimality for ConformsArr Sort Prop
  with ConformsSeq_mind := Minimality for ConformsSeq Sort Prop
  with ConformsFields_mind := Minimality for ConformsFields Sort Prop
  with ConformsEntries_mind := Minimality for ConformsEntries Sort Prop
  with ConformsOuts_mind := Minimality for ConformsOuts Sort Prop
  with ConformsNewStruct_mind := Minimality for ConformsNewStruct Sort Prop
  with ConformsGenEntries_mind := Minimality for ConformsGenEntries Sort Prop.

Combined Scheme Conforms_mutind from Conforms_mind, ConformsArr_mind, ConformsSeq_mind, ConformsFields_mind,
  ConformsEntries_mind, ConformsOuts_mind, ConformsNewStruct_mind, ConformsGenEntries_mind.

(* "for every large enough fuel": the form in which the fuels of several premises are aligned *)
Definition ev (P : nat -> Prop) : Prop := exists f0, forall f, (f0 <= f)%nat -> P f.

Lemma ev_now {P : nat -> Prop} : (forall f, P (S f)) -> ev P.
Proof. intros H. exists 1%nat. intros [|f] Hf; [lia|apply H]. Qed.

Lemma ev_S {P Q : nat -> Prop} : ev P -> (forall f, P f -> Q (S f)) -> ev Q.
Proof. intros (f0 & H0) H. exists (S f0). intros [|f] Hf; [lia|]. apply H, H0. lia. Qed.

Lemma ev_imp {P Q : nat -> Prop} : ev P -> (forall f, P f -> Q f) -> ev Q.
Proof. intros (f0 & H0) H. exists f0. intros f Hf. apply H, H0, Hf. Qed.

Lemma ev_and {P Q : nat -> Prop} : ev P -> ev Q -> ev (fun f => P f /\ Q f).
Proof. intros (a & Ha) (b & Hb). exists (Nat.max a b). intros f Hf. split; [apply Ha|apply Hb]; lia. Qed.

(* evaluates the dispatch on a token whose kind is a constant *)
Ltac disp := cbv beta iota zeta delta [dispatch nan_case bytes_case array_case object_case map_case tuple_case
  typename_case kind val N.eqb Pos.eqb KNaN KBytes KArray KObject KMap KTuple KTypeName].

(* the side conditions of [unm_dispatch] for a token of a given kind and a target with [Hu : underlying t = ...] *)
Ltac side Hu :=
  first [ reflexivity | rewrite Hu; reflexivity | (let E := fresh "E" in intros E; discriminate E)
        | (intros _; apply any_not_concrete; exact Hu) ].
Ltac loop_fuel g Hg := destruct g as [|g]; [exfalso; cbn [length] in Hg; lia|].
Ltac shorter H := apply unm_consumes in H; cbn [length] in *.

(* Sound: whatever [Conforms] derives, [unm] returns for every large enough fuel; by mutual induction on
   the derivation, one predicate S* per judgement of Spec/ConformSpec.v. *)
Section Sound.
Variable pf : bytes -> N -> option N.
Variable o : copts.
Variable R : registry.

Definition SP (t : ty) (cur : gval) (ts : list token) (v : gval) (rest : list token) : Prop :=
  ev (fun f => unm pf f o R t cur ts = Ok (v, rest)).
(* a loop over the stream [ts], given any iteration budget that covers it *)
Definition SL {A} (ts : list token) (loop : rec_t -> nat -> res A) (r : res A) : Prop :=
  ev (fun f => forall g, (length ts < g)%nat -> loop (unm pf f o R) g = r).
Definition SArr (e : ty) (items : list gval) (idx : nat) (ts : list token) (items' : list gval) (rest : list token) : Prop :=
  SL ts (fun rec g => arr_loop rec g e items idx ts) (Ok (items', rest)).
Definition SSeq (endk : N) (e : ty) (ts : list token) (items : list gval) (rest : list token) : Prop :=
  (endk = KArrayEnd -> forall acc, SL ts (fun rec g => slice_loop rec g e acc ts) (Ok (acc ++ items, rest))) /\
  (endk = KTupleEnd -> e = TAny -> forall tys vals,
     SL ts (fun rec g => tuple_loop rec g [] tys vals ts) (Ok ([], vals ++ map dyn_val items, tys ++ map dyn_ty items, rest))).
Definition SFields (fs : list (bytes * bool * ty)) (depr : list bytes) (vals : list gval) (ts : list token)
  (vals' : list gval) (rest : list token) : Prop :=
  SL ts (fun rec g => struct_loop o rec g fs depr vals ts) (Ok (vals', rest)).
Definition SEntries (kt vt : ty) (isnil : bool) (m : list (gval * gval)) (ts : list token) (v : gval) (rest : list token) : Prop :=
  SL ts (fun rec g => map_loop rec g kt vt isnil m ts) (Ok (v, rest)).
Definition SOuts (outs : list ty) (ts : list token) (items : list gval) (rest : list token) : Prop :=
  length items = length outs /\
  forall tys vals, SL ts (fun rec g => tuple_loop rec g outs tys vals ts) (Ok ([], vals ++ items, tys ++ outs, rest)).
Definition SNew (fs : list (bytes * bool * ty)) (vals : list gval) (ts : list token) (v : gval) (rest : list token) : Prop :=
  SL ts (fun rec g => newstruct_loop rec g fs vals ts) (Ok (v, rest)).
Definition SGen (m : list (gval * gval)) (ts : list token) (v : gval) (rest : list token) : Prop :=
  SL ts (fun rec g => genmap_loop rec g m ts) (Ok (v, rest)).

(* one more iteration of the two loops that the error reports ([arr_loop_error], [struct_loop_error]) go
   through as well: whatever the remaining iterations return, [r], is what the whole loop returns *)
Lemma s_CA_item e items idx tk ts v ts1 r :
  kind tk <> KArrayEnd -> (idx < length items)%nat ->
  SP e (nth idx items (zero e)) (tk :: ts) v ts1 ->
  SL ts1 (fun rec g => arr_loop rec g e (set_nth idx v items) (S idx) ts1) r ->
  SL (tk :: ts) (fun rec g => arr_loop rec g e items idx (tk :: ts)) r.
Proof.
  intros Hk Hi H1 H2. apply (ev_imp (ev_and H1 H2)). intros f [Hv Hl] g Hg. loop_fuel g Hg.
  apply N.eqb_neq in Hk. apply Nat.leb_gt in Hi. cbn [arr_loop]. rewrite Hk, Hi, Hv. cbn [bind fst snd].
  apply Hl. shorter Hv. lia.
Qed.

Lemma s_CF_field fs depr vals tk ts name ts1 i ft v ts2 r :
  kind tk <> KObjectEnd ->
  SP TString (GStr []) (tk :: ts) (GStr name) ts1 ->
  find_field name fs 0 = Some (i, ft) ->
  SP ft (nth i vals (zero ft)) ts1 v ts2 ->
  SL ts2 (fun rec g => struct_loop o rec g fs depr (set_nth i v vals) ts2) r ->
  SL (tk :: ts) (fun rec g => struct_loop o rec g fs depr vals (tk :: ts)) r.
Proof.
  intros Hk H1 Hf H2 H3. apply (ev_imp (ev_and H1 (ev_and H2 H3))). intros f (Hn & Hv & Hl) g Hg. loop_fuel g Hg.
  apply N.eqb_neq in Hk. cbn [struct_loop]. rewrite Hk, Hn. cbn [bind fst snd]. rewrite Hf, Hv. cbn [bind fst snd].
  apply Hl. shorter Hn. shorter Hv. lia.
Qed.

Lemma s_CF_skip fs depr vals tk ts name ts1 ts2 r :
  kind tk <> KObjectEnd ->
  SP TString (GStr []) (tk :: ts) (GStr name) ts1 ->
  find_field name fs 0 = None ->
  (strict o = true -> existsb (bytes_eqb name) depr = true) ->
  skip_value 0 ts1 = Ok ts2 ->
  SL ts2 (fun rec g => struct_loop o rec g fs depr vals ts2) r ->
  SL (tk :: ts) (fun rec g => struct_loop o rec g fs depr vals (tk :: ts)) r.
Proof.
  intros Hk H1 Hf Hs Hsk H3. apply (ev_imp (ev_and H1 H3)). intros f (Hn & Hl) g Hg. loop_fuel g Hg.
  apply N.eqb_neq in Hk. cbn [struct_loop]. rewrite Hk, Hn. cbn [bind fst snd]. rewrite Hf.
  replace (strict o && negb (existsb (bytes_eqb name) depr)) with false
    by (destruct (strict o); [rewrite (Hs eq_refl)|]; reflexivity).
  rewrite Hsk. cbn [bind]. apply Hl. shorter Hn. apply skip_value_suffix, ssuffix_length in Hsk. lia.
Qed.

(* the scalar rules: the dispatch alone decides *)
Ltac scalar_rule Hu Hp :=
  apply ev_now; intros f; rewrite unm_plain by (exact Hp || side Hu);
  rewrite scalar_case_plain by (exact Hp || discriminate); rewrite Hu;
  unfold set_scalar; cbn [kind val]; rewrite Hu, ?width_eqb_refl; reflexivity.
(* a rule without premises that the dispatch alone decides *)
Ltac leaf_rule Hu := apply ev_now; intros f; rewrite unm_dispatch by side Hu; rewrite Hu; reflexivity.
Ltac loop_end := apply ev_now; intros f g Hg; loop_fuel g Hg; cbn [slice_loop tuple_loop kind map]; try reflexivity.
(* a rule for an opening token: the dispatch, then the loop of the premise [IH] *)
Ltac open_rule Hu IH f Hf :=
  apply (ev_S IH); intros f Hf; cbv beta in Hf; rewrite unm_dispatch by side Hu; rewrite Hu; disp.

Lemma sound_all :
  (forall t cur ts v rest, Conforms pf o R t cur ts v rest -> SP t cur ts v rest) /\
  (forall e items idx ts items' rest, ConformsArr pf o R e items idx ts items' rest -> SArr e items idx ts items' rest) /\
  (forall endk e ts items rest, ConformsSeq pf o R endk e ts items rest -> SSeq endk e ts items rest) /\
  (forall fs depr vals ts vals' rest, ConformsFields pf o R fs depr vals ts vals' rest -> SFields fs depr vals ts vals' rest) /\
  (forall kt vt isnil m ts v rest, ConformsEntries pf o R kt vt isnil m ts v rest -> SEntries kt vt isnil m ts v rest) /\
  (forall outs ts items rest, ConformsOuts pf o R outs ts items rest -> SOuts outs ts items rest) /\
  (forall fs vals ts v rest, ConformsNewStruct pf o R fs vals ts v rest -> SNew fs vals ts v rest) /\
  (forall m ts v rest, ConformsGenEntries pf o R m ts v rest -> SGen m ts v rest).
Proof.
  apply Conforms_mutind.
  (* rules for every target *)
  - intros t cur x rest Ht. apply ev_now. intros f.
    rewrite unm_head by reflexivity. apply utail_nil; [exact Ht|reflexivity].
  - intros t cur x ts v rest Hc _ IH. apply (ev_S IH). intros f Hf.
    rewrite unm_head, utail_skip by (reflexivity || exact Hc). exact Hf.
  - intros t cur s tk ts v rest Hp Hc _ IH. apply (ev_imp IH). intros [|f] Hf; [rewrite unm_O in Hf; discriminate Hf|].
    destruct (convert_literal_cases pf _ _ _ Hc) as [(e & He & _)|[_ Hk]]; [contradiction (Hp e)|apply scalar_tok_nonlit in Hk].
    rewrite unm_tail, conv_tok_lit, Hc. cbn [bind]. rewrite <- unm_head by exact Hk. exact Hf.
  - intros t e cur tk ts v rest Hu Hn Htn _ IH. apply (ev_S IH). intros f Hr.
    pose proof (unm_ok_not_end _ _ _ _ _ _ _ _ _ Hr) as He.
    assert (Hc : conv_tok pf t tk = Ok tk).
    { destruct (kind tk =? KLiteral) eqn:Hl; [|apply conv_tok_nonlit; exact Hl].
      destruct (unm_ok_literal _ _ _ _ _ _ _ _ _ Hr Hl) as (s & ->). rewrite conv_tok_lit.
      apply (convert_literal_ptr pf t e), Hu. }
    rewrite (unm_ptr pf o R f t e) by (try assumption; apply N.eqb_neq; exact Hn). rewrite Hr. reflexivity.
  (* scalar targets *)
  - intros t cur k b rest Hu Hp. scalar_rule Hu Hp.
  - intros t w cur k z rest Hu Hp. scalar_rule Hu Hp.
  - intros t w cur k n rest Hu Hp. scalar_rule Hu Hp.
  - intros t cur k n rest Hu Hp. scalar_rule Hu Hp.
  - intros t cur k b rest Hu Hp. scalar_rule Hu Hp.
  - intros t cur k b rest Hu Hp. scalar_rule Hu Hp.
  - intros t cur x rest Hu. leaf_rule Hu.
  - intros t cur x rest Hu. leaf_rule Hu.
  - intros t cur s rest Hu. pose proof (eq_refl : plain_kind KString = true) as Hp. scalar_rule Hu Hp.
  - intros t cur s rest Hu Hv. apply ev_now. intros f. apply unm_time; assumption.
  (* a Bytes token *)
  - intros t cur s rest Hu. leaf_rule Hu.
  - intros t n cur s rest Hu Hle. apply ev_now. intros f. rewrite unm_dispatch by side Hu. rewrite Hu. disp.
    rewrite (proj2 (Nat.ltb_ge _ _) Hle), firstn_all2 by exact Hle. reflexivity.
  (* an Array token *)
  - intros t n e cur x ts items rest Hu _ IH. open_rule Hu IH f Hf. rewrite Hf by lia. reflexivity.
  - intros t n cur x ts items rest Hu _ IH. open_rule Hu IH f Hf. rewrite Hf by lia. reflexivity.
  - intros t e cur x ts items rest Hu _ [IH _]. specialize (IH eq_refl (items_of_gval cur)).
    open_rule Hu IH f Hf. rewrite Hf by lia. reflexivity.
  - intros t cur x ts items rest Hu _ [IH _]. specialize (IH eq_refl (items_of_gval cur)).
    open_rule Hu IH f Hf. rewrite Hf by lia. reflexivity.
  (* Object, Map, Tuple *)
  - intros t fs cur x ts vals rest Hu _ IH. open_rule Hu IH f Hf.
    fold (struct_vals fs cur). rewrite Hf by lia. reflexivity.
  - intros t kt vt cur x ts v rest Hu _ IH. open_rule Hu IH f Hf.
    specialize (Hf _ (Nat.lt_succ_diag_r _)). destruct cur; exact Hf.
  - intros t outs cur x ts vals rest Hu H50 _ [Hlen IH]. specialize (IH [] []). open_rule Hu IH f Hf.
    rewrite Hf by lia. cbn [bind app]. rewrite Hlen, (proj2 (Nat.ltb_ge _ _) H50), Nat.eqb_refl. reflexivity.
  (* interface targets *)
  - intros t cur tk d rest Hu Hp Hd. apply ev_now. intros f. rewrite unm_plain by (exact Hp || side Hu).
    rewrite scalar_case_plain, Hu, Hd; [reflexivity|exact Hp|]. intros E. unfold any_of_token in Hd. rewrite E in Hd. discriminate Hd.
  - intros t cur x rest Hu. leaf_rule Hu.
  - intros t cur s rest Hu. leaf_rule Hu.
  - intros t cur x ts items rest Hu _ [IH _]. specialize (IH eq_refl []).
    open_rule Hu IH f Hf. rewrite Hf by lia. reflexivity.
  - intros t cur x ts v rest Hu _ IH. open_rule Hu IH f Hf. apply Hf. lia.
  - intros t cur x ts v rest Hu _ IH. open_rule Hu IH f Hf. apply Hf. lia.
  - intros t cur x ts items rest Hu _ [_ IH] H50. specialize (IH eq_refl eq_refl [] []). open_rule Hu IH f Hf.
    rewrite Hf by lia. cbn [bind app]. rewrite map_length, (proj2 (Nat.ltb_ge _ _) H50). reflexivity.
  - intros t cur name rt ts v rest Hu Hrt _ IH. open_rule Hu IH f Hf. rewrite Hrt, Hf. reflexivity.
  - intros t cur x ts v rest Hu Hx _ IH. open_rule Hu IH f Hf.
    destruct x as [| | | | | | |s|]; try exact Hf. rewrite (Hx s eq_refl). exact Hf.
  (* the loops *)
  - intros e items idx x rest. loop_end.
  - intros e items idx tk ts v ts1 items' rest Hk Hi _ IH1 _ IH2. eapply s_CA_item; eassumption.
  - intros endk e x rest. split; [intros -> acc|intros -> _ tys vals]; loop_end; rewrite !app_nil_r; reflexivity.
  - intros endk e tk ts v ts1 items rest Hk _ IH1 _ [Ha Hb]. apply N.eqb_neq in Hk. split.
    + intros -> acc. specialize (Ha eq_refl (acc ++ [v])).
      apply (ev_imp (ev_and IH1 Ha)). intros f [Hv Hl] g Hg. loop_fuel g Hg.
      cbn [slice_loop]. rewrite Hk, Hv. cbn [bind fst snd]. rewrite Hl by (shorter Hv; lia).
      rewrite <- app_assoc. reflexivity.
    + intros -> -> tys vals. specialize (Hb eq_refl eq_refl (tys ++ [dyn_ty v]) (vals ++ [dyn_val v])).
      apply (ev_imp (ev_and IH1 Hb)). intros f [Hv Hl] g Hg. loop_fuel g Hg. cbn [zero] in Hv.
      cbn [tuple_loop]. rewrite Hk, Hv. cbn [bind fst snd]. rewrite Hl by (shorter Hv; lia).
      cbn [map]. rewrite <- !app_assoc. reflexivity.
  - intros fs depr vals x rest. loop_end.
  - intros fs depr vals tk ts name ts1 i ft v ts2 vals' rest Hk _ IHn Hf _ IHv _ IHl. eapply s_CF_field; eassumption.
  - intros fs depr vals tk ts name ts1 ts2 vals' rest Hk _ IHn Hf Hs Hsk _ IHl. eapply s_CF_skip; eassumption.
  - intros kt vt isnil m x rest. loop_end.
  - intros kt vt isnil m tk ts k ts1 x ts2 res rest Hk _ IHk Hc _ IHv _ IHl.
    apply (ev_imp (ev_and IHk (ev_and IHv IHl))). intros f (Hn & Hv & Hl) g Hg. loop_fuel g Hg.
    apply N.eqb_neq in Hk. cbn [map_loop]. rewrite Hk, Hn. cbn [bind fst snd]. rewrite Hc. cbn [negb].
    rewrite Hv. cbn [bind fst snd]. apply Hl. shorter Hn. shorter Hv. lia.
  - intros x rest. split; [reflexivity|]. intros tys vals. loop_end. rewrite !app_nil_r. reflexivity.
  - intros ot outs tk ts v ts1 vals rest Hk _ IH1 _ [Hlen IH2]. split; [cbn [length]; f_equal; exact Hlen|].
    intros tys acc. specialize (IH2 (tys ++ [ot]) (acc ++ [v])).
    apply (ev_imp (ev_and IH1 IH2)). intros f [Hv Hl] g Hg. loop_fuel g Hg.
    apply N.eqb_neq in Hk. cbn [tuple_loop]. rewrite Hk, Hv. cbn [bind fst snd]. rewrite Hl by (shorter Hv; lia).
    rewrite <- !app_assoc. reflexivity.
  - intros fs vals x rest. loop_end.
  - intros fs vals tk ts name ts1 vt v ts2 res rest Hk _ IHn Hx Hd _ IHv _ IHl.
    apply (ev_imp (ev_and IHn (ev_and IHv IHl))). intros f (Hn & Hv & Hl) g Hg. loop_fuel g Hg.
    apply N.eqb_neq in Hk. cbn [newstruct_loop]. rewrite Hk, Hn. cbn [bind fst snd]. rewrite Hx, Hd. cbn [negb].
    rewrite Hv. cbn [bind fst snd]. apply Hl. shorter Hn. shorter Hv. lia.
  - intros m x rest. loop_end.
  - intros m tk ts k ts1 kt kv x ts2 res rest Hk _ IHk Hkey Hc Hnan _ IHv _ IHl.
    apply (ev_imp (ev_and IHk (ev_and IHv IHl))). intros f (Hn & Hv & Hl) g Hg. loop_fuel g Hg.
    apply N.eqb_neq in Hk. cbn [genmap_loop]. rewrite Hk, Hn. cbn [bind fst snd]. rewrite Hkey in *. rewrite Hc. cbn [negb].
    fold (nan_key kv). rewrite Hnan, Hv. cbn [bind fst snd]. apply Hl. shorter Hn. shorter Hv. lia.
Qed.

End Sound.

Theorem conforms_sound pf o R t cur ts v rest :
  Conforms pf o R t cur ts v rest -> exists f, unm pf f o R t cur ts = Ok (v, rest).
Proof.
  intros H. destruct (proj1 (sound_all pf o R) _ _ _ _ _ H) as (f0 & Hf).
  exists f0. apply Hf. apply Nat.le_refl.
Qed.

(* C05: unmarshalling succeeds EXACTLY WHEN the stream conforms, with the value and the rest
   the relation prescribes *)
Theorem unm_ok_iff_conforms pf o R t cur ts v rest :
  (exists f, unm pf f o R t cur ts = Ok (v, rest)) <-> Conforms pf o R t cur ts v rest.
Proof.
  split; [intros (f & H); exact (conforms_complete pf o R f t cur ts v rest H)|apply conforms_sound].
Qed.

Definition fuel_bound (R : registry) (t : ty) (ts : list token) : nat :=
  (length ts * S (reg_depth R) + ty_depth t + 1)%nat.

(* [fuel_bound] is the fuel of [unm_total_bound] *)
Theorem conforms_iff_bound pf o R t cur ts v rest :
  Conforms pf o R t cur ts v rest <-> unm pf (fuel_bound R t ts) o R t cur ts = Ok (v, rest).
Proof.
  split; [|apply conforms_complete]. intros H. destruct (conforms_sound _ _ _ _ _ _ _ _ H) as (f & Hf).
  rewrite <- Hf. apply unm_fuel_agree; [apply unm_total_bound|rewrite Hf; discriminate].
Qed.

Corollary conforms_functional pf o R t cur ts v rest v' rest' :
  Conforms pf o R t cur ts v rest -> Conforms pf o R t cur ts v' rest' -> v = v' /\ rest = rest'.
Proof.
  intros H1 H2. apply conforms_iff_bound in H1. apply conforms_iff_bound in H2.
  rewrite H1 in H2. injection H2 as <- <-. split; reflexivity.
Qed.

Corollary conforms_fuel_independent pf o R t cur ts v rest f :
  Conforms pf o R t cur ts v rest ->
  unm pf f o R t cur ts = OutOfFuel \/ unm pf f o R t cur ts = Ok (v, rest).
Proof.
  intros H. destruct (conforms_sound _ _ _ _ _ _ _ _ H) as (f1 & H1).
  destruct (unm pf f o R t cur ts) eqn:Hf; [right|right|left; reflexivity];
    rewrite <- H1, <- Hf; apply unm_fuel_agree; rewrite ?Hf, ?H1; discriminate.
Qed.

Theorem unm_err_iff_not_conforms pf o R t cur ts :
  (exists f e, unm pf f o R t cur ts = Err e) <-> ~ (exists v rest, Conforms pf o R t cur ts v rest).
Proof.
  split.
  - intros (f & e & He) (v & rest & H).
    destruct (conforms_fuel_independent pf o R t cur ts v rest f H) as [H'|H']; congruence.
  - intros Hn. exists (fuel_bound R t ts).
    destruct (unm pf (fuel_bound R t ts) o R t cur ts) as [[v rest]|e|] eqn:Hf.
    + exfalso. apply Hn. exists v, rest. eapply conforms_complete. exact Hf.
    + exists e. reflexivity.
    + contradiction (unm_total_bound pf o R t cur ts Hf).
Qed.

Corollary conforms_consumes pf o R t cur ts v rest :
  Conforms pf o R t cur ts v rest -> exists used, ts = used ++ rest /\ used <> [].
Proof. intros H. destruct (conforms_sound _ _ _ _ _ _ _ _ H) as (f & Hf). eapply unm_suffix. exact Hf. Qed.

(* "scalar kinds match the target kind exactly": for a well-shaped scalar token and a scalar target,
   conformance is the equality of the token's dynamic type with the target's underlying type *)
Theorem scalar_conforms_iff pf o R t cur tk rest v rest' :
  is_scalar_ty (underlying t) = true -> scalar_tok tk = true ->
  (Conforms pf o R t cur (tk :: rest) v rest' <->
   tok_matches t tk = true /\ any_of_token tk = Some (underlying t, v) /\ rest' = rest).
Proof.
  intros Ht Htk. split.
  - intros H. destruct (tok_matches t tk) eqn:Hm.
    + destruct (scalar_match pf o R 0 t cur tk rest Ht Htk Hm) as (v0 & Ha & Hu).
      destruct (conforms_fuel_independent pf o R _ _ _ _ _ 1%nat H) as [E|E]; rewrite Hu in E; [discriminate E|].
      injection E as <- <-. auto.
    + pose proof (scalar_mismatch pf o R 0 t cur tk rest Ht Htk Hm) as Hu.
      destruct (conforms_fuel_independent pf o R _ _ _ _ _ 1%nat H) as [E|E]; rewrite Hu in E; discriminate E.
  - intros (Hm & Ha & ->).
    destruct (scalar_match pf o R 0 t cur tk rest Ht Htk Hm) as (v0 & Ha' & Hu).
    rewrite Ha in Ha'. injection Ha' as <-. eapply conforms_complete. exact Hu.
Qed.

Definition kind_of_val (v : tval) : option N :=
  match v with
  | VBool _ => Some KBool | VI w _ => Some (kind_of_int w) | VU w _ => Some (kind_of_uint w)
  | VPtr _ => Some KPointer | VF32 _ => Some KFloat32 | VF64 _ => Some KFloat64
  | _ => None
  end.

(* on well-formed tokens the side condition [plain_kind k] of the scalar rules says: k is the kind of
   the value, which is the target's own kind *)
Lemma wf_scalar_kind tk k : wf_token tk = true -> kind_of_val (val tk) = Some k ->
  kind tk = k /\ plain_kind k = true.
Proof.
  unfold wf_token. destruct tk as [k0 x]. cbn [kind val]. intros H Hk.
  apply andb_true_iff in H. destruct H as [Hs _].
  destruct x as [|b|w z|w n|n|b|b|s|s]; try discriminate Hk; cbn [kind_of_val] in Hk; injection Hk as <-;
    cbn [kind_shape] in Hs; try destruct w; apply N.eqb_eq in Hs; subst k0; split; reflexivity.
Qed.

Section Mismatch.
Variable pf : bytes -> N -> option N.
Variable o : copts.
Variable R : registry.

(* a well-shaped scalar token against ANY target that is not a pointer, an interface or time.Time
   (scalar or composite) whose type differs: TypeMismatch {token kind, reflect kind of the target} *)
Theorem mismatch_reported f t cur tk rest :
  scalar_tok tk = true -> tok_matches t tk = false ->
  underlying t <> TTime -> underlying t <> TAny -> (forall e, underlying t <> TPtr e) ->
  unm pf (S f) o R t cur (tk :: rest) = Err (EMismatch (kind tk) (rk_of t)).
Proof.
  intros Htk Hm Htime Hany Hptr. destruct (scalar_tok_kind tk Htk) as [Hk Hv]. apply scalar_kind_plain in Hk.
  rewrite unm_plain, scalar_case_plain by (assumption || apply dispatched_intro; assumption).
  rewrite set_scalar_matches, Hm. destruct (underlying t); reflexivity || congruence.
Qed.

(* time.Time reports the kind of the bridge token it expects (String, 24), not its own reflect kind *)
Theorem mismatch_reported_time f t cur tk rest :
  underlying t = TTime -> (kind tk =? KString) = false -> (kind tk =? KLiteral) = false ->
  (kind tk =? KTypeName) = false ->
  unm pf (S f) o R t cur (tk :: rest) = Err (EMismatch (kind tk) 24).
Proof.
  intros Hu Hs Hl Htn. rewrite unm_head by exact Hl.
  rewrite utail_time by (exact Hu || (intros E; rewrite E in Htn; discriminate Htn)).
  unfold time_case. rewrite Hs. reflexivity.
Qed.

Definition open_accepts (k : N) (ut : ty) : bool :=
  match ut with
  | TAny => true
  | TF32 | TF64 => k =? KNaN
  | TBytes | TByteArray _ => (k =? KBytes) || (k =? KArray)
  | TArray _ _ | TSlice _ => k =? KArray
  | TStruct _ => k =? KObject
  | TMap _ _ => k =? KMap
  | TFunc _ => k =? KTuple
  | _ => false
  end.

Theorem mismatch_reported_structural f t cur k x rest :
  In k [KNaN; KBytes; KArray; KObject; KMap; KTuple] -> open_accepts k (underlying t) = false ->
  underlying t <> TTime -> (forall e, underlying t <> TPtr e) ->
  unm pf (S f) o R t cur (T k x :: rest) = Err (EMismatch k (rk_of t)).
Proof.
  intros Hin Hacc Htime Hptr. pose proof (dispatched_intro _ Htime Hptr) as Hd. cbn [In] in Hin.
  destruct Hin as [<-|[<-|[<-|[<-|[<-|[<-|[]]]]]]];
    rewrite unm_dispatch by (reflexivity || exact Hd || (intros E; discriminate E));
    disp; destruct (underlying t); try discriminate Hacc; try reflexivity; discriminate Hd.
Qed.

Lemma ev_err t cur ts e : (exists f, unm pf f o R t cur ts = Err e) -> ev (fun f => unm pf f o R t cur ts = Err e).
Proof. intros (f0 & H). exists f0. intros f Hf. eapply unm_fuel_mono; [exact H|discriminate|exact Hf]. Qed.

(* inside an array: after any number of conforming items, the error of the next one is the error
   of the whole *)
Inductive ArrPrefix (e : ty) : list gval -> nat -> list token -> list gval -> nat -> list token -> Prop :=
| AP_here items idx ts : ArrPrefix e items idx ts items idx ts
| AP_item items idx tk ts v ts1 items' idx' ts' :
    kind tk <> KArrayEnd -> (idx < length items)%nat ->
    Conforms pf o R e (nth idx items (zero e)) (tk :: ts) v ts1 ->
    ArrPrefix e (set_nth idx v items) (S idx) ts1 items' idx' ts' ->
    ArrPrefix e items idx (tk :: ts) items' idx' ts'.

Lemma arr_loop_error e items idx ts items' idx' tk ts' err :
  ArrPrefix e items idx ts items' idx' (tk :: ts') ->
  kind tk <> KArrayEnd -> (idx' < length items')%nat ->
  (exists f, unm pf f o R e (nth idx' items' (zero e)) (tk :: ts') = Err err) ->
  SL pf o R ts (fun rec g => arr_loop rec g e items idx ts) (Err err).
Proof.
  intros Hp Hk. remember (tk :: ts') as tl eqn:Etl.
  induction Hp as [items idx ts|items idx tk0 ts v ts1 items' idx' tl Hk0 Hi0 Hc Hp IH]; intros Hi He.
  - subst ts. apply (ev_imp (ev_err _ _ _ _ He)). intros f Hf g Hg. loop_fuel g Hg.
    apply N.eqb_neq in Hk. apply Nat.leb_gt in Hi. cbn [arr_loop]. rewrite Hk, Hi, Hf. reflexivity.
  - eapply s_CA_item; [exact Hk0|exact Hi0|apply sound_all, Hc|apply IH; assumption].
Qed.

Theorem array_error_propagates t n e cur x ts items' idx' tk ts' err :
  underlying t = TArray n e ->
  ArrPrefix e (items_of_gval cur) 0 ts items' idx' (tk :: ts') ->
  kind tk <> KArrayEnd -> (idx' < length items')%nat ->
  (exists f, unm pf f o R e (nth idx' items' (zero e)) (tk :: ts') = Err err) ->
  exists f, unm pf f o R t cur (T KArray x :: ts) = Err err.
Proof.
  intros Hu Hp Hk Hi He. destruct (arr_loop_error _ _ _ _ _ _ _ _ _ Hp Hk Hi He) as (f0 & H).
  exists (S f0). rewrite unm_dispatch by side Hu. rewrite Hu. disp. rewrite H by lia. reflexivity.
Qed.

(* inside an object: after any number of conforming (name, value) pairs, matched or skipped, the
   error of the next field's value is the error of the whole *)
Inductive FieldsPrefix (fs : list (bytes * bool * ty)) (depr : list bytes) :
  list gval -> list token -> list gval -> list token -> Prop :=
| FP_here vals ts : FieldsPrefix fs depr vals ts vals ts
| FP_field vals tk ts name ts1 i ft v ts2 vals' ts' :
    kind tk <> KObjectEnd ->
    Conforms pf o R TString (GStr []) (tk :: ts) (GStr name) ts1 ->
    find_field name fs 0 = Some (i, ft) ->
    Conforms pf o R ft (nth i vals (zero ft)) ts1 v ts2 ->
    FieldsPrefix fs depr (set_nth i v vals) ts2 vals' ts' ->
    FieldsPrefix fs depr vals (tk :: ts) vals' ts'
| FP_skip vals tk ts name ts1 ts2 vals' ts' :
    kind tk <> KObjectEnd ->
    Conforms pf o R TString (GStr []) (tk :: ts) (GStr name) ts1 ->
    find_field name fs 0 = None ->
    (strict o = true -> existsb (bytes_eqb name) depr = true) ->
    skip_value 0 ts1 = Ok ts2 ->
    FieldsPrefix fs depr vals ts2 vals' ts' ->
    FieldsPrefix fs depr vals (tk :: ts) vals' ts'.

Lemma struct_loop_error fs depr vals ts vals' tk ts' name ts1 i ft err :
  FieldsPrefix fs depr vals ts vals' (tk :: ts') ->
  kind tk <> KObjectEnd ->
  Conforms pf o R TString (GStr []) (tk :: ts') (GStr name) ts1 ->
  find_field name fs 0 = Some (i, ft) ->
  (exists f, unm pf f o R ft (nth i vals' (zero ft)) ts1 = Err err) ->
  SL pf o R ts (fun rec g => struct_loop o rec g fs depr vals ts) (Err err).
Proof.
  intros Hp Hk. remember (tk :: ts') as tl eqn:Etl.
  induction Hp as [vals ts
                  |vals tk0 ts name0 ts10 i0 ft0 v ts2 vals' tl Hk0 Hn0 Hf0 Hv0 Hp IH
                  |vals tk0 ts name0 ts10 ts2 vals' tl Hk0 Hn0 Hf0 Hs0 Hsk Hp IH]; intros Hn Hf He.
  - subst ts. apply (ev_imp (ev_and (proj1 (sound_all pf o R) _ _ _ _ _ Hn) (ev_err _ _ _ _ He))).
    intros f [Hn' He'] g Hg. loop_fuel g Hg.
    apply N.eqb_neq in Hk. cbn [struct_loop]. rewrite Hk, Hn'. cbn [bind fst snd]. rewrite Hf, He'. reflexivity.
  - eapply s_CF_field; [exact Hk0|apply sound_all, Hn0|exact Hf0|apply sound_all, Hv0|apply IH; assumption].
  - eapply s_CF_skip; [exact Hk0|apply sound_all, Hn0|exact Hf0|exact Hs0|exact Hsk|apply IH; assumption].
Qed.

Theorem field_error_propagates t fs cur x ts vals' tk ts' name ts1 i ft err :
  underlying t = TStruct fs ->
  FieldsPrefix fs (depr_of t) (struct_vals fs cur) ts vals' (tk :: ts') ->
  kind tk <> KObjectEnd ->
  Conforms pf o R TString (GStr []) (tk :: ts') (GStr name) ts1 ->
  find_field name fs 0 = Some (i, ft) ->
  (exists f, unm pf f o R ft (nth i vals' (zero ft)) ts1 = Err err) ->
  exists f, unm pf f o R t cur (T KObject x :: ts) = Err err.
Proof.
  intros Hu Hp Hk Hn Hf He. destruct (struct_loop_error _ _ _ _ _ _ _ _ _ _ _ _ Hp Hk Hn Hf He) as (f0 & H).
  exists (S f0). rewrite unm_dispatch by side Hu. rewrite Hu. disp.
  fold (struct_vals fs cur). rewrite H by lia. reflexivity.
Qed.

Corollary array_item_mismatch_reported t n e cur x ts items' idx' tk ts' :
  underlying t = TArray n e ->
  ArrPrefix e (items_of_gval cur) 0 ts items' idx' (tk :: ts') ->
  (idx' < length items')%nat ->
  scalar_tok tk = true -> tok_matches e tk = false ->
  underlying e <> TTime -> underlying e <> TAny -> (forall e', underlying e <> TPtr e') ->
  exists f, unm pf f o R t cur (T KArray x :: ts) = Err (EMismatch (kind tk) (rk_of e)).
Proof.
  intros Hu Hp Hi Htk Hm H1 H2 H3. eapply array_error_propagates; try eassumption.
  - destruct (scalar_tok_kind tk Htk) as [Hk _]. intros E. rewrite E in Hk. discriminate Hk.
  - exists 1%nat. apply mismatch_reported; assumption.
Qed.

End Mismatch.

Definition cpf0 : bytes -> N -> option N := fun _ _ => None.
Definition strict_opts : copts := Opts false true false.

(* type S struct { A int; p bool; P *string }, holding {1, true, nil} *)
Definition ExS : ty := TStruct [([65], true, TInt WNat); ([112], false, TBool); ([80], true, TPtr TString)].
Definition ex_s_cur : gval := GStruct [GInt 1; GBool true; GPtr None].
(* { "Zz": [1], "P": "hi", "A": 7 } true *)
Definition ex_s_stream : list token :=
  [T KObject VNone;
   T KString (VStr [90; 122]); T KArray VNone; T KInt (VI WNat 1); T KArrayEnd VNone;
   T KString (VStr [80]); T KString (VStr [104; 105]);
   T KString (VStr [65]); T KInt (VI WNat 7);
   T KObjectEnd VNone;
   T KBool (VBool true)].
Definition ex_s_result : gval := GStruct [GInt 7; GBool true; GPtr (Some (GStr [104; 105]))].

Ltac not_kind := let E := fresh "E" in intros E; cbn [kind] in E; discriminate E.

(* a derivation, rule by rule: the unknown field "Zz" is skipped by structure, the pointer field is
   allocated, the unexported field keeps its value *)
Example conforms_struct_ex :
  Conforms cpf0 default_opts [] ExS ex_s_cur ex_s_stream ex_s_result [T KBool (VBool true)].
Proof.
  eapply C_struct; [reflexivity|]. cbn [struct_vals ex_s_cur depr_of ExS].
  eapply CF_skip; [not_kind|apply C_string; reflexivity|reflexivity|intros E; discriminate E|reflexivity|].
  eapply CF_field; [not_kind|apply C_string; reflexivity|reflexivity| |].
  { eapply C_ptr; [reflexivity|not_kind|not_kind|]. apply C_string. reflexivity. }
  eapply CF_field; [not_kind|apply C_string; reflexivity|reflexivity| |].
  { apply C_int; reflexivity. }
  apply CF_end.
Qed.

Example unm_struct_ex :
  unm cpf0 5 default_opts [] ExS ex_s_cur ex_s_stream = Ok (ex_s_result, [T KBool (VBool true)]).
Proof. vm_compute. reflexivity. Qed.

(* in strict mode the same stream does not conform: "Zz" is not declared deprecated ... *)
Example strict_struct_ex :
  unm cpf0 5 strict_opts [] ExS ex_s_cur ex_s_stream = Err EUnknownField /\
  ~ (exists v rest, Conforms cpf0 strict_opts [] ExS ex_s_cur ex_s_stream v rest).
Proof.
  split; [vm_compute; reflexivity|]. apply unm_err_iff_not_conforms. exists 5%nat, EUnknownField. vm_compute. reflexivity.
Qed.

(* ... unless the type declares it so *)
Example strict_deprecated_ex :
  exists v, Conforms cpf0 strict_opts [] (TNamed [83] false [[90; 122]] ExS) ex_s_cur ex_s_stream v [T KBool (VBool true)].
Proof. eexists. eapply (conforms_complete _ _ _ 5). vm_compute. reflexivity. Qed.

(* an array target with fewer items than its length: the last element is untouched *)
Definition ex_arr_stream : list token := [T KArray VNone; T KInt (VI WNat 1); T KInt (VI WNat 2); T KArrayEnd VNone].

Example conforms_array_fewer_ex :
  Conforms cpf0 default_opts [] (TArray 3 (TInt WNat)) (GList false [GInt 9; GInt 9; GInt 9]) ex_arr_stream
           (GList false [GInt 1; GInt 2; GInt 9]) [].
Proof.
  eapply C_array; [reflexivity|]. cbn [items_of_gval].
  eapply CA_item; [not_kind|cbn; lia|apply C_int; reflexivity|].
  eapply CA_item; [not_kind|cbn; lia|apply C_int; reflexivity|].
  apply CA_end.
Qed.

Example unm_array_fewer_ex :
  unm cpf0 3 default_opts [] (TArray 3 (TInt WNat)) (GList false [GInt 9; GInt 9; GInt 9]) ex_arr_stream
  = Ok (GList false [GInt 1; GInt 2; GInt 9], []).
Proof. vm_compute. reflexivity. Qed.

(* an array longer than the target does not conform: TooManyElement *)
Example array_longer_ex :
  unm cpf0 3 default_opts [] (TArray 1 (TInt WNat)) (GList false [GInt 9]) ex_arr_stream = Err ETooMany /\
  ~ (exists v rest, Conforms cpf0 default_opts [] (TArray 1 (TInt WNat)) (GList false [GInt 9]) ex_arr_stream v rest).
Proof.
  split; [vm_compute; reflexivity|]. apply unm_err_iff_not_conforms. exists 3%nat, ETooMany. vm_compute. reflexivity.
Qed.

(* the mismatch inside an array, with both kinds: an int32 as second item of a [3]int16 *)
Example array_item_mismatch_ex :
  unm cpf0 3 default_opts [] (TArray 3 (TInt W16)) (GList false [GInt 0; GInt 0; GInt 0])
      [T KArray VNone; T KInt16 (VI W16 1); T KInt32 (VI W32 2); T KArrayEnd VNone]
  = Err (EMismatch KInt32 4).
Proof. vm_compute. reflexivity. Qed.

Example scalar_conforms_iff_ex : forall v rest',
  Conforms cpf0 default_opts [] (TInt W16) (GInt 0) [T KInt16 (VI W16 5)] v rest' <-> v = GInt 5 /\ rest' = [].
Proof.
  intros v rest'. rewrite scalar_conforms_iff by reflexivity. cbn. split.
  - intros (_ & [= <-] & ->). split; reflexivity.
  - intros (-> & ->). repeat split.
Qed.

(* edges: where the model is more liberal (or stricter) than a literal reading of the statement of C05; (5)
   quotes the Nil rule of Spec/ConformSpec.v *)

(* (1) the scalar rules look at the dynamic type of the token's VALUE, not at its kind: an ill-shaped
   token (kind Int carrying a bool) is accepted by a bool target.  On well-formed tokens the kind is
   determined by the value (wf_scalar_kind), so "kinds match exactly" holds there. *)
Example ill_shaped_scalar_edge :
  unm cpf0 1 default_opts [] TBool (GBool false) [T KInt (VBool true)] = Ok (GBool true, []) /\
  unm cpf0 1 default_opts [] (TInt W8) (GInt 0) [T KBool (VI W8 3)] = Ok (GInt 3, []).
Proof. split; vm_compute; reflexivity. Qed.

(* (2) "arrays are not longer than the target array", for both wire forms of a byte array: a Bytes token
   longer than a [n]byte target is TooManyElement and does not conform, exactly as the Array form;
   a shorter one leaves the tail of the array *)
Example bytes_longer_than_array_edge :
  unm cpf0 1 default_opts [] (TByteArray 2) (GBytes false [9; 9]) [T KBytes (VBytes [1; 2; 3])] = Err ETooMany /\
  ~ (exists v rest, Conforms cpf0 default_opts [] (TByteArray 2) (GBytes false [9; 9]) [T KBytes (VBytes [1; 2; 3])] v rest) /\
  unm cpf0 3 default_opts [] (TByteArray 2) (GBytes false [9; 9])
      [T KArray VNone; T KUint8 (VU W8 1); T KUint8 (VU W8 2); T KUint8 (VU W8 3); T KArrayEnd VNone] = Err ETooMany /\
  unm cpf0 1 default_opts [] (TByteArray 3) (GBytes false [9; 9; 9]) [T KBytes (VBytes [1])] = Ok (GBytes false [1; 9; 9], []) /\
  Conforms cpf0 default_opts [] (TByteArray 3) (GBytes false [9; 9; 9]) [T KBytes (VBytes [1])] (GBytes false [1; 9; 9]) [].
Proof.
  split; [vm_compute; reflexivity|]. split.
  { apply unm_err_iff_not_conforms. exists 1%nat, ETooMany. vm_compute. reflexivity. }
  split; [vm_compute; reflexivity|]. split; [vm_compute; reflexivity|].
  apply (C_bytes_array _ _ _ _ 3); [reflexivity|cbn; lia].
Qed.

(* (3) a field NAME is itself unmarshalled into a string target: Nil stands for the empty name (an
   unknown field, skipped; refused in strict mode), a Literal or a TypeName-prefixed String is a name *)
Definition ExA : ty := TStruct [([65], true, TInt WNat)].
Example field_name_forms_edge :
  unm cpf0 3 default_opts [] ExA (GStruct [GInt 1])
      [T KObject VNone; T KNil VNone; T KInt (VI WNat 5); T KObjectEnd VNone] = Ok (GStruct [GInt 1], []) /\
  unm cpf0 3 strict_opts [] ExA (GStruct [GInt 1])
      [T KObject VNone; T KNil VNone; T KInt (VI WNat 5); T KObjectEnd VNone] = Err EUnknownField /\
  unm cpf0 3 default_opts [] ExA (GStruct [GInt 1])
      [T KObject VNone; T KLiteral (VStr [65]); T KInt (VI WNat 5); T KObjectEnd VNone] = Ok (GStruct [GInt 5], []) /\
  unm cpf0 4 default_opts [] ExA (GStruct [GInt 1])
      [T KObject VNone; T KTypeName (VStr [90]); T KString (VStr [65]); T KInt (VI WNat 5); T KObjectEnd VNone]
    = Ok (GStruct [GInt 5], []).
Proof. repeat split; vm_compute; reflexivity. Qed.

(* (4) a slice target is appended to, not replaced *)
Example slice_appends_edge :
  unm cpf0 3 default_opts [] (TSlice (TInt WNat)) (GList false [GInt 1])
      [T KArray VNone; T KInt (VI WNat 2); T KArrayEnd VNone] = Ok (GList false [GInt 1; GInt 2], []).
Proof. vm_compute. reflexivity. Qed.

(* (5) "Nil leaves the target untouched" has two exceptions: time.Time refuses Nil (reporting the
   String kind it expects, 24, although its own reflect kind is Struct, 25), and the value of a map
   entry is decoded into a fresh zero value, so Nil resets an existing entry *)
Example nil_not_untouched_edge :
  unm cpf0 1 default_opts [] TTime (zero TTime) [T KNil VNone] = Err (EMismatch KNil 24) /\
  rk_of TTime = 25 /\
  unm cpf0 3 default_opts [] (TMap TString (TInt WNat)) (GMap false [(GStr [65], GInt 7)])
      [T KMap VNone; T KString (VStr [65]); T KNil VNone; T KMapEnd VNone] = Ok (GMap false [(GStr [65], GInt 0)], []).
Proof. repeat split; vm_compute; reflexivity. Qed.

(* (6) a non-nil pointer target gets a FRESH pointee: the fields an object does not mention are reset *)
Example pointer_fresh_pointee_edge :
  unm cpf0 3 default_opts [] (TPtr ExA) (GPtr (Some (GStruct [GInt 4]))) [T KObject VNone; T KObjectEnd VNone]
  = Ok (GPtr (Some (GStruct [GInt 0])), []).
Proof. vm_compute. reflexivity. Qed.

Definition ConformP_main_theorems :=
  (conforms_sound, conforms_complete, unm_ok_iff_conforms, conforms_iff_bound, conforms_functional,
   conforms_fuel_independent, unm_err_iff_not_conforms, conforms_consumes, scalar_conforms_iff, wf_scalar_kind,
   mismatch_reported, mismatch_reported_time, mismatch_reported_structural,
   array_error_propagates, field_error_propagates, array_item_mismatch_reported,
   conforms_struct_ex, unm_struct_ex, strict_struct_ex, strict_deprecated_ex,
   conforms_array_fewer_ex, unm_array_fewer_ex, array_longer_ex, array_item_mismatch_ex, scalar_conforms_iff_ex,
   ill_shaped_scalar_edge, bytes_longer_than_array_edge, field_name_forms_edge, slice_appends_edge,
   nil_not_untouched_edge, pointer_fresh_pointee_edge).
Print Assumptions ConformP_main_theorems.
