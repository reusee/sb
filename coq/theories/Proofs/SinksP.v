(* Proofs/SinksP.v — C14: Copy delivers every token exactly once and in order to every live
   sink (also with a failing source / a failing sink), and the sink combinators
   (FilterSink, ConcatSinks, CollectValueTokens, AltSink) do what they promise.
   Copy deletes finished sinks by swap-with-last, so the order of the live sinks is not kept:
   a pass is described up to permutation, and a sink is followed through the run by the slice
   of the live list that logs under its id.  In the order of the file:
   one pass of Copy's inner loop, up to permutation (pass_outcome, pass_cases, pass_spec); the outer loop
     on a token-list source (copy_step, slice_step); what a recorder expects (expg) and how many tokens
     Copy pulls (pulls_spec); Copy to recorders from a source that ends cleanly or with an error
     (copy_recorders);
   C14: copy_delivery, copy_pulls;  C15: copy_source_fault, copy_sink_fault (fault_pass, copy_sink_fault_gen);
   C14, the combinators through sink_run: FilterSink (filter_sink), ConcatSinks (concat_run,
     concat_sinks_nary, concat_sinks_seq), CollectValueTokens (cv_value, collect_value,
     collect_value_stray_end, collect_value_unclosed), AltSink (alt_loop_fails, fails_alt, alt_sink). *)
From Coq Require Import List NArith ZArith Bool Arith Lia Permutation.
From SbModel Require Import Base.Tokens Base.Values Model.Sinks Model.Procs Spec.StreamSpec.
Import ListNotations.

Lemma filter_perm {A} (f : A -> bool) a b : Permutation a b -> Permutation (filter f a) (filter f b).
Proof.
  induction 1 as [|x a b Hp IH|x y a|a b c H1 IH1 H2 IH2]; cbn [filter].
  - constructor.
  - destruct (f x); [now constructor|exact IH].
  - destruct (f x), (f y); try reflexivity. constructor.
  - now rewrite IH1.
Qed.

Lemma forallb_perm {A} (f : A -> bool) a b : Permutation a b -> forallb f a = forallb f b.
Proof.
  intros H. apply eq_true_iff_eq. rewrite !forallb_forall.
  split; intros Hall x Hx; apply Hall; [symmetry in H|]; exact (Permutation_in x H Hx).
Qed.

Lemma perm_short {A} (y l : list A) : length y <= 1 -> Permutation y l -> l = y.
Proof.
  destruct y as [|a [|b y]]; cbn [length]; intros Hy H;
    [|now apply Permutation_length_1_inv|destruct (Nat.nle_succ_0 _ (le_S_n _ _ Hy))].
  now apply Permutation_nil.
Qed.

Lemma map_const_repeat {A B} (c : B) (l : list A) : map (fun _ => c) l = repeat c (length l).
Proof. induction l as [|x l IH]; [reflexivity|]. cbn. now rewrite IH. Qed.

Lemma fuel_S n fuel : S n <= fuel -> exists f, fuel = S f /\ n <= f.
Proof.
  destruct fuel as [|f]; intros H; [destruct (Nat.nle_succ_0 _ H)|].
  exists f. split; [reflexivity|exact (le_S_n _ _ H)].
Qed.

(* swap-with-last deletion, on the part of the slice after the deleted element *)
Lemma swap_last_perm {A} (d : A) rest :
  Permutation (match rest with [] => [] | _ => last rest d :: removelast rest end) rest.
Proof.
  destruct rest as [|x l]; [constructor|].
  assert (H : x :: l <> []) by discriminate.
  rewrite (app_removelast_last d H) at 3.
  apply Permutation_cons_append.
Qed.

Definition swapl (rest : list sink) : list sink :=
  match rest with [] => [] | _ => last rest SNil :: removelast rest end.

Lemma swapl_perm rest : Permutation (swapl rest) rest.
Proof. apply swap_last_perm. Qed.

Lemma swapl_length rest : length (swapl rest) = length rest.
Proof. apply Permutation_length, swapl_perm. Qed.

Definition log_of (id : nat) (lg : list delivery) : list (option token) :=
  map snd (filter (fun d => Nat.eqb (fst d) id) lg).

Lemma log_of_app id a b : log_of id (a ++ b) = log_of id a ++ log_of id b.
Proof. unfold log_of. now rewrite filter_app, map_app. Qed.

Lemma log_of_one id i t : log_of id [(i, t)] = if Nat.eqb i id then [t] else [].
Proof. unfold log_of. cbn [filter fst]. destruct (Nat.eqb i id); reflexivity. Qed.

Lemma log_of_in d lg : In d lg -> log_of (fst d) lg <> [].
Proof.
  intros Hin. apply in_split in Hin. destruct Hin as (a & b & ->).
  rewrite log_of_app. change (d :: b) with ([d] ++ b). rewrite log_of_app.
  destruct d as [i t]. rewrite log_of_one. cbn [fst]. rewrite Nat.eqb_refl.
  destruct (log_of i a); discriminate.
Qed.

(* nil, recorders, and the failing test sink; each logs under one id only *)
Definition sid (s : sink) : option nat :=
  match s with SRec i _ | SFail i _ => Some i | _ => None end.
Definition simple (s : sink) : Prop :=
  match s with SNil | SRec _ _ | SFail _ _ => True | _ => False end.
Definition has_id (id : nat) (s : sink) : bool :=
  match sid s with Some i => Nat.eqb i id | None => false end.
Definition feeds_ok (t : option token) (s : sink) : Prop :=
  match feed s t with FOk _ _ => True | FErr _ _ => False end.

(* [upd t l]: the live sinks after every one of l has been offered t; [upd1 t s] is the share of s
   in it: nothing if s is nil, ends or fails on t *)
Definition upd1 (t : option token) (s : sink) : list sink :=
  if is_nil s then []
  else match feed s t with
       | FOk s' _ => if is_nil s' then [] else [s']
       | FErr _ _ => []
       end.
Definition upd (t : option token) (l : list sink) : list sink := flat_map (upd1 t) l.

Lemma has_id_rec id i l : has_id id (SRec i l) = Nat.eqb i id.
Proof. reflexivity. Qed.

Lemma has_id_fail id i k : has_id id (SFail i k) = Nat.eqb i id.
Proof. reflexivity. Qed.

Lemma fed_ok {t s s' lg} : feed s t = FOk s' lg -> feeds_ok t s.
Proof. unfold feeds_ok. now intros ->. Qed.

Lemma fed_err {t s e lg} : feed s t = FErr e lg -> ~ feeds_ok t s.
Proof. unfold feeds_ok. now intros ->. Qed.

Lemma upd1_nil t s : is_nil s = true -> upd1 t s = [].
Proof. unfold upd1. now intros ->. Qed.

Lemma upd1_fed {t s s' lg} : is_nil s = false -> feed s t = FOk s' lg ->
  upd1 t s = if is_nil s' then [] else [s'].
Proof. unfold upd1. now intros -> ->. Qed.

Lemma upd_perm t a b : Permutation a b -> Permutation (upd t a) (upd t b).
Proof. intros H. unfold upd. now apply Permutation_flat_map. Qed.

Lemma upd_cons t s l : upd t (s :: l) = upd1 t s ++ upd t l.
Proof. reflexivity. Qed.

Lemma upd_one t s : upd t [s] = upd1 t s.
Proof. apply app_nil_r. Qed.

Lemma feed_simple s t : simple s -> is_nil s = false ->
  exists id, sid s = Some id /\
    match feed s t with
    | FOk s' lg => lg = [(id, t)] /\ simple s' /\ (is_nil s' = false -> sid s' = Some id)
    | FErr e lg => e = EFault /\ lg = [(id, t)]
    end.
Proof.
  destruct s as [|id l|id k| | | | |]; try (intros []; fail); try discriminate; intros _ _;
    exists id; (split; [reflexivity|]); cbn [feed].
  - destruct t as [t|]; [|repeat split; discriminate]. destruct l as [[|[|k]]|]; repeat split; discriminate.
  - destruct k as [|[|k]]; [repeat split..|]. destruct t; repeat split; discriminate.
Qed.

Lemma upd1_simple t s : simple s ->
  upd1 t s = [] \/ exists s', upd1 t s = [s'] /\ simple s' /\ sid s' = sid s.
Proof.
  intros Hs. unfold upd1. destruct (is_nil s) eqn:En; [now left|].
  destruct (feed_simple s t Hs En) as (id & Hid & Hfeed).
  destruct (feed s t) as [s' lg|e lg]; [|now left]. destruct (is_nil s') eqn:En'; [now left|].
  right. exists s'. rewrite Hid. destruct Hfeed as (_ & Hs' & Hid'). auto.
Qed.

Lemma slice_upd t id l : Forall simple l ->
  filter (has_id id) (upd t l) = upd t (filter (has_id id) l).
Proof.
  induction 1 as [|s l Hs Hl IH]; [reflexivity|].
  rewrite upd_cons, filter_app, IH. cbn [filter].
  assert (E : filter (has_id id) (upd1 t s) = if has_id id s then upd1 t s else []).
  { destruct (upd1_simple t s Hs) as [->|(s' & -> & _ & Hid)]; [now destruct (has_id id s)|].
    cbn [filter]. unfold has_id. rewrite Hid. now destruct (sid s) as [i|]; [destruct (Nat.eqb i id)|]. }
  rewrite E. now destruct (has_id id s).
Qed.

Lemma copy_pass_S f t done s rest lg :
  copy_pass (S f) t done (s :: rest) lg =
  if is_nil s then copy_pass f t done (swapl rest) lg
  else match feed s t with
       | FErr e lg' => inr (e, lg ++ lg')
       | FOk s' lg' =>
           if is_nil s' then copy_pass f t done (swapl rest) (lg ++ lg')
           else copy_pass f t (done ++ [s']) rest (lg ++ lg')
       end.
Proof. reflexivity. Qed.

(* lg' is lg and one delivery of t to every sink of l *)
Definition told (t : option token) (l : list sink) (lg lg' : list delivery) : Prop :=
  forall id, log_of id lg' = log_of id lg ++ map (fun _ => t) (filter (has_id id) l).

Lemma told_nil t lg : told t [] lg lg.
Proof. intros id. symmetry. apply app_nil_r. Qed.

Lemma told_one t s i lg : sid s = Some i -> told t [s] lg (lg ++ [(i, t)]).
Proof.
  intros Hi id. rewrite log_of_app, log_of_one. cbn [filter]. unfold has_id. rewrite Hi.
  now destruct (Nat.eqb i id).
Qed.

Lemma told_app t a b lg lg1 lg2 : told t a lg lg1 -> told t b lg1 lg2 -> told t (a ++ b) lg lg2.
Proof. intros Ha Hb id. now rewrite Hb, Ha, filter_app, map_app, app_assoc. Qed.

Lemma told_perm t a b lg lg' : Permutation a b -> told t a lg lg' -> told t b lg lg'.
Proof.
  intros Hp Ha id. rewrite Ha, !map_const_repeat. do 2 f_equal.
  apply Permutation_length, filter_perm, Hp.
Qed.

(* What a pass does, however swap-with-last reorders the sinks.  Either every sink accepts t:
   then each has been fed once and the survivors come out in some order.  Or the pass stops
   at the first sink that fails, after feeding some of the others. *)
Definition pass_outcome (t : option token) (done todo : list sink) (lg : list delivery)
    (r : list sink * list delivery + eclass * list delivery) : Prop :=
  match r with
  | inl (out, lg') =>
      Forall (feeds_ok t) todo /\ Permutation out (done ++ upd t todo) /\ told t todo lg lg'
  | inr (e, lg') =>
      e = EFault /\ exists fed s rest, Permutation todo (fed ++ rest) /\ In s fed /\ ~ feeds_ok t s /\
                                     told t fed lg lg'
  end.

Lemma outcome_perm t done a b lg r :
  Permutation a b -> pass_outcome t done a lg r -> pass_outcome t done b lg r.
Proof.
  intros Hp. destruct r as [[out lg']|[e lg']]; cbn [pass_outcome].
  - intros (Hok & Hout & Ht). split; [now rewrite <- Hp|]. split; [|exact (told_perm _ _ _ _ _ Hp Ht)].
    now rewrite Hout, (upd_perm t _ _ Hp).
  - intros (He & fed & s & rest & Hfed & H). split; [exact He|]. exists fed, s, rest.
    split; [now rewrite <- Hp|exact H].
Qed.

(* the sink at the head of the slice has been fed: lg1 is the log, done' the survivors so far *)
Lemma outcome_cons t done done' s rest lg lg1 r :
  feeds_ok t s -> told t [s] lg lg1 -> Permutation done' (done ++ upd1 t s) ->
  pass_outcome t done' rest lg1 r -> pass_outcome t done (s :: rest) lg r.
Proof.
  intros Hok Hs Hd. destruct r as [[out lg']|[e lg']]; cbn [pass_outcome].
  - intros (Hall & Hout & Ht). split; [now constructor|]. split; [|exact (told_app t [s] rest _ _ _ Hs Ht)].
    now rewrite Hout, Hd, upd_cons, app_assoc.
  - intros (He & fed & s0 & rest0 & Hfed & Hin & Hbad & Ht). split; [exact He|].
    exists (s :: fed), s0, rest0. split; [cbn [app]; now constructor|]. split; [now right|].
    split; [exact Hbad|exact (told_app t [s] fed _ _ _ Hs Ht)].
Qed.

(* length todo < fuel is what the loop needs; copy calls it with S (S (length sinks)) *)
Lemma pass_cases t : forall fuel done todo lg,
  length todo < fuel -> Forall simple todo ->
  pass_outcome t done todo lg (copy_pass fuel t done todo lg).
Proof.
  induction fuel as [|f IH]; intros done todo lg Hf Hs; [destruct (Nat.nlt_0_r _ Hf)|].
  destruct todo as [|s rest]; [|apply Nat.succ_lt_mono in Hf].
  - cbn. split; [constructor|]. split; [now rewrite app_nil_r|apply told_nil].
  - rewrite copy_pass_S. inversion Hs as [|? ? Hs1 Hs2]; subst.
    assert (Hswap : forall lg0, pass_outcome t done rest lg0 (copy_pass f t done (swapl rest) lg0)).
    { intros lg0. apply (outcome_perm _ _ _ _ _ _ (swapl_perm rest)), IH.
      - rewrite swapl_length. exact Hf.
      - exact (Permutation_Forall (Permutation_sym (swapl_perm rest)) Hs2). }
    destruct (is_nil s) eqn:En.
    { destruct s; try discriminate En.
      apply (outcome_cons t done done SNil rest lg lg); [exact I|apply told_nil| |apply Hswap].
      now rewrite upd1_nil, app_nil_r. }
    destruct (feed_simple s t Hs1 En) as (i & Hi & Hfeed).
    destruct (feed s t) as [s' lg1|e lg1] eqn:Ef.
    + destruct Hfeed as (-> & _). destruct (is_nil s') eqn:En'.
      * apply (outcome_cons t done done s rest lg (lg ++ [(i, t)])); [|now apply told_one| |apply Hswap].
        -- exact (fed_ok Ef).
        -- now rewrite (upd1_fed En Ef), En', app_nil_r.
      * apply (outcome_cons t done (done ++ [s']) s rest lg (lg ++ [(i, t)])); [|now apply told_one| |apply IH; assumption].
        -- exact (fed_ok Ef).
        -- now rewrite (upd1_fed En Ef), En'.
    + destruct Hfeed as (-> & ->). cbn. split; [reflexivity|]. exists [s], s, rest.
      split; [reflexivity|]. split; [now left|]. split; [exact (fed_err Ef)|now apply told_one].
Qed.

Lemma pass_spec t : forall fuel done todo lg,
  length todo < fuel -> Forall simple todo -> Forall (feeds_ok t) todo ->
  exists out lg', copy_pass fuel t done todo lg = inl (out, lg') /\
    Permutation out (done ++ upd t todo) /\
    forall id, log_of id lg' = log_of id lg ++ map (fun _ => t) (filter (has_id id) todo).
Proof.
  intros fuel done todo lg Hf Hs Hok. pose proof (pass_cases t fuel done todo lg Hf Hs) as H.
  destruct (copy_pass fuel t done todo lg) as [[out lg']|[e lg']].
  - exists out, lg'. split; [reflexivity|exact (proj2 H)].
  - destruct H as (_ & fed & s & rest & Hfed & Hin & Hbad & _). destruct Hbad.
    rewrite Forall_forall in Hok. apply Hok. rewrite Hfed. apply in_or_app. now left.
Qed.

Theorem copy_no_sinks fuel src lg p : 1 <= fuel -> copy fuel src [] lg p = CR ENone lg p.
Proof. intros H. destruct fuel as [|f]; [destruct (Nat.nle_succ_0 _ H)|reflexivity]. Qed.

Lemma copy_tokens_cons f t r c sinks lg p : sinks <> [] ->
  copy (S f) (Some (PTokens (t :: r) c)) sinks lg p =
  match copy_pass (S (S (length sinks))) (Some t) [] sinks lg with
  | inl (out, lg1) => copy f (Some (PTokens r c)) out lg1 (S p)
  | inr (e, lg1) => CR e lg1 (S p)
  end.
Proof.
  intros Hne. destruct sinks as [|s0 sinks0]; [congruence|]. cbn [copy next pstep app].
  rewrite app_nil_r. destruct (copy_pass _ _ _ _ _) as [[[|] ]|[]]; reflexivity.
Qed.

Definition src_end (oe : option eclass) : proc := match oe with None => PNil | Some e => PFail e end.

Lemma copy_tokens_nil f oe sinks lg p : sinks <> [] ->
  copy (S (S f)) (Some (PTokens [] (src_end oe))) sinks lg p =
  match oe with
  | Some e => CR e lg p
  | None => match copy_pass (S (S (length sinks))) None [] sinks lg with
            | inl ([], lg1) => CR ENone lg1 p
            | inl (out, lg1) => copy (S f) None out lg1 p
            | inr (e, lg1) => CR e lg1 p
            end
  end.
Proof.
  intros Hne. destruct sinks as [|s0 sinks0]; [congruence|].
  destruct oe; cbn [copy next pstep app src_end]; now rewrite app_nil_r.
Qed.

Lemma copy_step t r c f sinks lg p :
  sinks <> [] -> Forall simple sinks -> Forall (feeds_ok (Some t)) sinks ->
  exists out lg1,
    copy (S f) (Some (PTokens (t :: r) c)) sinks lg p = copy f (Some (PTokens r c)) out lg1 (S p) /\
    Permutation out (upd (Some t) sinks) /\ told (Some t) sinks lg lg1.
Proof.
  intros Hne Hs Hok.
  destruct (pass_spec (Some t) (S (S (length sinks))) [] sinks lg) as (out & lg1 & Ep & H);
    [apply Nat.lt_lt_succ_r, Nat.lt_succ_diag_r|assumption|assumption|].
  exists out, lg1. rewrite copy_tokens_cons, Ep by assumption. auto.
Qed.

(* the sinks that log under id after the step, from those before: no other ordering of a
   list of at most one *)
Lemma slice_step t sinks out id y :
  Forall simple sinks -> Permutation out (upd t sinks) ->
  upd t (filter (has_id id) sinks) = y -> length y <= 1 -> filter (has_id id) out = y.
Proof.
  intros Hs Hp Hy Hlen. apply (perm_short _ _ Hlen).
  rewrite <- Hy, <- slice_upd by assumption. symmetry. now apply filter_perm.
Qed.

Definition rn (s : sink) : Prop := is_rec_or_nil s = true.

Lemma rn_simple s : rn s -> simple s.
Proof. destruct s; intros H; try discriminate H; exact I. Qed.

Definition life_after (l : life) : option life :=
  match l with
  | ToEnd => Some ToEnd
  | Fin k => match k with O | 1 => None | S k' => Some (Fin k') end
  end.

Lemma feed_rec id l t :
  feed (SRec id l) (Some t) =
  FOk (match life_after l with Some l' => SRec id l' | None => SNil end) [(id, Some t)].
Proof. destruct l as [k|]; [|reflexivity]. destruct k as [|[|k']]; reflexivity. Qed.

Lemma feed_rec_eos id l : feed (SRec id l) None = FOk SNil [(id, None)].
Proof. reflexivity. Qed.

Lemma rn_feeds_ok t s : rn s -> feeds_ok t s.
Proof.
  destruct s as [|id l| | | | | |]; try discriminate; intros _; [exact I|].
  destruct t; [exact (fed_ok (feed_rec id l _))|exact (fed_ok (feed_rec_eos id l))].
Qed.

Lemma upd1_rec id l t :
  upd1 (Some t) (SRec id l) = match life_after l with Some l' => [SRec id l'] | None => [] end.
Proof. rewrite (upd1_fed (s := SRec id l) eq_refl (feed_rec id l t)). now destruct (life_after l). Qed.

Lemma upd1_rn t s : rn s -> Forall rn (upd1 t s).
Proof.
  destruct s as [|id l| | | | | |]; try discriminate; intros _; [constructor|].
  destruct t; [|constructor]. rewrite upd1_rec. destruct (life_after l); repeat constructor.
Qed.

Lemma upd_rn t l : Forall rn l -> Forall rn (upd t l).
Proof. intros H. apply Forall_flat_map. revert H. apply Forall_impl, upd1_rn. Qed.

Lemma upd_eos_rn l : Forall rn l -> upd None l = [].
Proof.
  induction 1 as [|s l Hs Hl IH]; [reflexivity|]. rewrite upd_cons, IH. now destruct s.
Qed.

(* expected, with the reaction to the end of the source as a parameter: [None] for a clean
   end, [] for a source fault *)
Definition expg (eos : list (option token)) (ts : list token) (l : life) : list (option token) :=
  match l with
  | ToEnd => map Some ts ++ eos
  | Fin k => let k' := Nat.max k 1 in
             if Nat.leb k' (length ts) then map Some (firstn k' ts) else map Some ts ++ eos
  end.

Lemma expected_expg ts l : expected ts l = expg [None] ts l.
Proof. reflexivity. Qed.

Lemma expg_nil eos l : expg eos [] l = eos.
Proof. now destruct l as [[|k]|]. Qed.

Lemma expg_cons eos t r l :
  expg eos (t :: r) l =
  match life_after l with Some l' => Some t :: expg eos r l' | None => [Some t] end.
Proof.
  destruct l as [k|]; [|reflexivity].
  destruct k as [|[|k']]; cbn [life_after]; try reflexivity.
  unfold expg. cbn [length Nat.max]. rewrite Nat.max_0_r.
  change (Nat.leb (S (S k')) (S (length r))) with (Nat.leb (S k') (length r)).
  destruct (Nat.leb (S k') (length r)); reflexivity.
Qed.

Lemma expg_fault ts id l : expg [] ts l = map Some (firstn (needs (length ts) (SRec id l)) ts).
Proof.
  destruct l as [k|]; cbn [expg needs].
  - destruct (Nat.leb_spec (Nat.max k 1) (length ts)) as [H|H].
    + now rewrite Nat.min_l by exact H.
    + rewrite Nat.min_r by apply Nat.lt_le_incl, H. now rewrite firstn_all, app_nil_r.
  - now rewrite firstn_all, app_nil_r.
Qed.

Lemma expg_prefix ts l : exists q, expected ts l = expg [] ts l ++ q.
Proof.
  rewrite expected_expg. destruct l as [k|]; cbn [expg].
  - destruct (Nat.leb (Nat.max k 1) (length ts)).
    + exists []. now rewrite app_nil_r.
    + exists [None]. now rewrite app_nil_r.
  - exists [None]. now rewrite app_nil_r.
Qed.

Lemma slice_rec t sinks out id l :
  Forall simple sinks -> Permutation out (upd (Some t) sinks) ->
  filter (has_id id) sinks = [SRec id l] ->
  filter (has_id id) out = match life_after l with Some l' => [SRec id l'] | None => [] end.
Proof.
  intros Hs Hp E. apply (slice_step _ _ _ _ _ Hs Hp).
  - now rewrite E, upd_one, upd1_rec.
  - destruct (life_after l); [apply le_n|apply Nat.le_0_1].
Qed.

Lemma slice_none t sinks out id :
  Forall simple sinks -> Permutation out (upd t sinks) ->
  filter (has_id id) sinks = [] -> filter (has_id id) out = [].
Proof. intros Hs Hp E. apply (slice_step _ _ _ _ _ Hs Hp); [now rewrite E|apply Nat.le_0_1]. Qed.

(* copy_pulls writes pulls_spec out *)
Definition pulls_spec (n : nat) (sinks : list sink) : nat :=
  match sinks with
  | [] => 0
  | _ => if forallb is_nil sinks then Nat.min 1 n else needed n sinks
  end.

Lemma needed_cons n s l : needed n (s :: l) = Nat.max (needs n s) (needed n l).
Proof. reflexivity. Qed.

Lemma needed_app n a b : needed n (a ++ b) = Nat.max (needed n a) (needed n b).
Proof.
  induction a as [|x a IH]; [reflexivity|]. cbn [app]. rewrite !needed_cons, IH. apply Nat.max_assoc.
Qed.

Lemma needed_perm n a b : Permutation a b -> needed n a = needed n b.
Proof.
  induction 1 as [|x a b Hp IH|x y a|a b c H1 IH1 H2 IH2]; rewrite ?needed_cons.
  - reflexivity.
  - now rewrite IH.
  - now rewrite !Nat.max_assoc, (Nat.max_comm (needs n y)).
  - now rewrite IH1.
Qed.

Lemma needed_zero l : needed 0 l = 0.
Proof.
  induction l as [|s l IH]; [reflexivity|]. rewrite needed_cons, IH, Nat.max_0_r.
  destruct s as [|id [k|]| | | | | |]; try reflexivity. apply Nat.min_0_r.
Qed.

Lemma upd_all_nil t l : forallb is_nil l = true -> upd t l = [].
Proof.
  induction l as [|x l IH]; [reflexivity|]. cbn [forallb]. intros En.
  apply andb_prop in En. destruct En as [E1 E2]. now rewrite upd_cons, IH, upd1_nil.
Qed.

Lemma needs_step n t s : rn s ->
  needs (S n) s = if is_nil s then 0 else S (needed n (upd1 (Some t) s)).
Proof.
  destruct s as [|id l| | | | | |]; try discriminate; intros _; [reflexivity|]. rewrite upd1_rec. cbn [is_nil].
  destruct l as [[|[|k]]|]; cbn [life_after needs needed fold_right Nat.max Nat.min];
    now rewrite ?Nat.max_0_r.
Qed.

Lemma needed_step n t l : Forall rn l ->
  needed (S n) l = if forallb is_nil l then 0 else S (needed n (upd (Some t) l)).
Proof.
  induction 1 as [|s l Hs Hl IH]; [reflexivity|].
  rewrite needed_cons, (needs_step n t s Hs), IH, upd_cons, needed_app. cbn [forallb].
  destruct (is_nil s) eqn:Es; [rewrite upd1_nil by exact Es; now destruct (forallb is_nil l)|].
  destruct (forallb is_nil l) eqn:En; cbn [andb]; [|reflexivity].
  rewrite (upd_all_nil _ _ En). cbn [needed fold_right]. now rewrite !Nat.max_0_r.
Qed.

(* the survivors of a pass are all live, so none of the special cases of pulls_spec applies *)
Lemma upd1_live t s : Forall (fun s' => is_nil s' = false) (upd1 t s).
Proof.
  unfold upd1. destruct (is_nil s); [constructor|]. destruct (feed s t) as [s' lg|e lg]; [|constructor].
  destruct (is_nil s') eqn:En; repeat constructor. exact En.
Qed.

Lemma pulls_spec_live n l : Forall (fun s => is_nil s = false) l -> pulls_spec n l = needed n l.
Proof. destruct 1 as [|s l Hs Hl]; [reflexivity|]. unfold pulls_spec. cbn [forallb]. now rewrite Hs. Qed.

Lemma pulls_spec_step n t sinks out : sinks <> [] -> Forall rn sinks ->
  Permutation out (upd (Some t) sinks) ->
  pulls_spec (S n) sinks = S (pulls_spec n out).
Proof.
  intros Hne Hrn Hperm. rewrite (pulls_spec_live n out), (needed_perm n _ _ Hperm).
  - destruct sinks as [|s0 l0]; [congruence|]. unfold pulls_spec.
    rewrite (needed_step n t) by assumption.
    destruct (forallb is_nil (s0 :: l0)) eqn:En; [|reflexivity].
    now rewrite (upd_all_nil _ _ En).
  - rewrite Hperm. apply Forall_flat_map, Forall_forall. intros s _. apply upd1_live.
Qed.

Lemma pulls_spec_zero l : pulls_spec 0 l = 0.
Proof. destruct l; [reflexivity|]. unfold pulls_spec. rewrite needed_zero. now destruct (forallb _ _). Qed.

Lemma needs_le n s : needs n s <= n.
Proof. destruct s as [|id [k|]| | | | | |]; cbn [needs]; auto using Nat.le_min_r, Nat.le_0_l. Qed.

Lemma needed_le n l : needed n l <= n.
Proof. induction l as [|s l IH]; [apply Nat.le_0_l|]. exact (Nat.max_lub _ _ _ (needs_le n s) IH). Qed.

Definition outlives (n : nat) (l : life) : Prop :=
  match l with ToEnd => True | Fin k => n < k end.

Lemma outlives_step n l : outlives (S n) l -> exists l', life_after l = Some l' /\ outlives n l'.
Proof.
  destruct l as [k|]; cbn [outlives].
  - intros H. destruct k as [|k]; [destruct (Nat.nlt_0_r _ H)|]. apply Nat.succ_lt_mono in H.
    destruct k as [|k']; [destruct (Nat.nlt_0_r _ H)|]. now exists (Fin (S k')).
  - intros _. exists ToEnd. split; reflexivity.
Qed.

Lemma needs_outlived n id l : outlives n l -> needs n (SRec id l) = n.
Proof.
  destruct l as [k|]; [|reflexivity]. intros H. apply Nat.min_r.
  exact (Nat.le_trans _ _ _ (Nat.lt_le_incl _ _ H) (Nat.le_max_l k 1)).
Qed.

Lemma pulls_spec_outlived n id l sinks : In (SRec id l) sinks -> outlives n l -> pulls_spec n sinks = n.
Proof.
  intros Hin Hlive.
  assert (En : forallb is_nil sinks = false).
  { destruct (forallb is_nil sinks) eqn:E; [|reflexivity]. rewrite forallb_forall in E. discriminate (E _ Hin). }
  assert (Hn : needed n sinks = n).
  { clear En. induction sinks as [|s sinks IH]; [easy|]. rewrite needed_cons. destruct Hin as [->|Hin].
    - rewrite Nat.max_l; [|now rewrite (needs_outlived n id l Hlive); apply needed_le].
      now apply needs_outlived.
    - rewrite IH by assumption. apply Nat.max_r, needs_le. }
  unfold pulls_spec. rewrite En, Hn. now destruct sinks.
Qed.

Definition eos_of (oe : option eclass) : list (option token) :=
  match oe with None => [None] | Some _ => [] end.
Definition err_of (oe : option eclass) : eclass := match oe with None => ENone | Some e => e end.

(* every recorder sees its share of the tokens and, if it is still live then, the way the
   source ends; the source's error is reported if a recorder is still live then *)
Definition recorders_served oe ts sinks lg p (r : copy_result) : Prop :=
  (forall id l, filter (has_id id) sinks = [SRec id l] ->
     log_of id (cr_log r) = log_of id lg ++ expg (eos_of oe) ts l) /\
  (forall id, filter (has_id id) sinks = [] -> log_of id (cr_log r) = log_of id lg) /\
  cr_pulls r = p + pulls_spec (length ts) sinks /\
  (oe = None \/ (exists id l, filter (has_id id) sinks = [SRec id l] /\ outlives (length ts) l) ->
   cr_err r = err_of oe).

Lemma recorders_served_none oe ts lg p : recorders_served oe ts [] lg p (CR ENone lg p).
Proof. repeat split; [discriminate|symmetry; apply Nat.add_0_r|]. now intros [->|(id & l & [=] & _)]. Qed.

Lemma copy_recorders oe : forall ts sinks lg p fuel,
  Forall rn sinks -> S (S (length ts)) <= fuel ->
  recorders_served oe ts sinks lg p (copy fuel (Some (PTokens ts (src_end oe))) sinks lg p).
Proof.
  induction ts as [|t ts IH]; intros sinks lg p fuel Hrn Hf;
    destruct (fuel_S _ _ Hf) as (f & -> & Hf');
    (destruct sinks as [|s0 l0]; [apply recorders_served_none|]);
    remember (s0 :: l0) as sinks eqn:Es; assert (Hne : sinks <> []) by (subst; discriminate); clear Es;
    unfold recorders_served.
  - destruct (fuel_S _ _ Hf') as (f' & -> & _).
    rewrite copy_tokens_nil by assumption. cbn [length]. rewrite pulls_spec_zero, Nat.add_0_r.
    destruct oe as [e|]; cbn [eos_of err_of]; [repeat split; intros; now rewrite ?expg_nil, ?app_nil_r|].
    destruct (pass_spec None (S (S (length sinks))) [] sinks lg) as (out & lg1 & -> & Hperm & Hlog);
      [apply Nat.lt_lt_succ_r, Nat.lt_succ_diag_r|revert Hrn; apply Forall_impl, rn_simple|
       revert Hrn; apply Forall_impl, rn_feeds_ok|].
    rewrite (upd_eos_rn _ Hrn) in Hperm. apply Permutation_sym, Permutation_nil in Hperm. subst out.
    repeat split; cbn [cr_log].
    + intros id l E. rewrite (Hlog id), E, expg_nil. reflexivity.
    + intros id E. rewrite (Hlog id), E. apply app_nil_r.
  - cbn [length] in *.
    assert (Hs : Forall simple sinks) by (revert Hrn; apply Forall_impl, rn_simple).
    destruct (copy_step t ts (src_end oe) f sinks lg p Hne Hs) as (out & lg1 & -> & Hperm & Hlog);
      [revert Hrn; apply Forall_impl, rn_feeds_ok|].
    destruct (IH out lg1 (S p) f (Permutation_Forall (Permutation_sym Hperm) (upd_rn _ _ Hrn)) Hf')
      as (Hl & Ho & Hp & He).
    repeat split.
    + intros id l E. rewrite expg_cons. pose proof (slice_rec t sinks out id l Hs Hperm E) as E'.
      destruct (life_after l) as [l'|]; [rewrite (Hl id l' E')|rewrite (Ho id E')];
        rewrite (Hlog id), E, <- ?app_assoc; reflexivity.
    + intros id E. rewrite (Ho id (slice_none _ _ _ _ Hs Hperm E)), (Hlog id), E. apply app_nil_r.
    + rewrite Hp, (pulls_spec_step (length ts) t sinks out Hne Hrn Hperm). apply Nat.add_succ_comm.
    + intros H. apply He. destruct H as [H|(id & l & E & Hlive)]; [now left|right].
      destruct (outlives_step _ _ Hlive) as (l' & El' & Hlive').
      exists id, l'. split; [|exact Hlive']. rewrite (slice_rec t sinks out id l Hs Hperm E), El'. reflexivity.
Qed.

(* distinct ids: each recorder is the only sink logging under its id (the theorems below write
   rec_ids out) *)
Definition rec_ids (l : list sink) : list nat :=
  flat_map (fun s => match rec_id s with Some i => [i] | None => [] end) l.

Lemma in_rec_ids id l : In id (rec_ids l) <-> exists lf, In (SRec id lf) l.
Proof.
  unfold rec_ids. rewrite in_flat_map. split.
  - intros (s & Hs & Hi). destruct s as [|i lf| | | | | |]; try (destruct Hi; fail). destruct Hi as [<-|[]]. now exists lf.
  - intros (lf & Hin). exists (SRec id lf). split; [exact Hin|now left].
Qed.

Lemma slice_out id l : Forall rn l -> ~ In id (rec_ids l) -> filter (has_id id) l = [].
Proof.
  induction 1 as [|s l Hs Hl IH]; [reflexivity|]. intros Hn. cbn [filter].
  destruct s as [|i lf| | | | | |]; try discriminate Hs; [|rewrite has_id_rec].
  - apply IH, Hn.
  - destruct (Nat.eqb_spec i id) as [->|_]; [destruct Hn; now left|]. apply IH. intros H. apply Hn. now right.
Qed.

Lemma slice_in id lf l : Forall rn l -> NoDup (rec_ids l) -> In (SRec id lf) l ->
  filter (has_id id) l = [SRec id lf].
Proof.
  induction 1 as [|s l Hs Hl IH]; [intros _ []|]. intros Hnd Hin. cbn [filter].
  destruct s as [|i lf'| | | | | |]; try discriminate Hs; [|rewrite has_id_rec].
  - destruct Hin as [Hin|Hin]; [discriminate|]. now apply IH.
  - inversion Hnd as [|? ? Hi Hnd']; subst. destruct Hin as [[= -> ->]|Hin].
    + rewrite Nat.eqb_refl. f_equal. now apply slice_out.
    + destruct (Nat.eqb_spec i id) as [->|_]; [|now apply IH].
      destruct Hi. apply in_rec_ids. now exists lf.
Qed.

(* C14: Copy delivers each token exactly once, in order *)
Theorem copy_delivery ts sinks :
  (forall s, In s sinks -> is_rec_or_nil s = true) ->
  NoDup (flat_map (fun s => match rec_id s with Some i => [i] | None => [] end) sinks) ->
  exists n, forall fuel, n <= fuel ->
    let r := copy fuel (Some (PTokens ts PNil)) sinks [] 0 in
    cr_err r = ENone /\
    (forall id l, In (SRec id l) sinks ->
       map snd (filter (fun d => Nat.eqb (fst d) id) (cr_log r)) = expected ts l) /\
    (forall d, In d (cr_log r) -> exists l, In (SRec (fst d) l) sinks).
Proof.
  intros Hrn Hnd. apply Forall_forall in Hrn.
  exists (S (S (length ts))). intros fuel Hf.
  destruct (copy_recorders None ts sinks [] 0 fuel Hrn Hf) as (Hl & Ho & _ & He).
  split; [apply He; now left|]. split.
  - intros id l Hin. exact (Hl id l (slice_in id l sinks Hrn Hnd Hin)).
  - intros d Hd. apply in_rec_ids.
    destruct (in_dec Nat.eq_dec (fst d) (rec_ids sinks)) as [Hi|Hi]; [exact Hi|].
    destruct (log_of_in d _ Hd). exact (Ho _ (slice_out _ _ Hrn Hi)).
Qed.

Example copy_delivery_ex :
  let t1 := T KBool (VBool true) in let t2 := T KNil VNone in let t3 := T KInt (VI WNat 7) in
  let r := copy 5 (Some (PTokens [t1; t2; t3] PNil))
                [SRec 2 ToEnd; SNil; SRec 1 (Fin 2); SRec 3 (Fin 1); SRec 4 (Fin 9)] [] 0 in
  cr_err r = ENone /\ cr_pulls r = 3 /\
  log_of 2 (cr_log r) = [Some t1; Some t2; Some t3; None] /\
  log_of 1 (cr_log r) = [Some t1; Some t2] /\
  log_of 3 (cr_log r) = [Some t1] /\
  log_of 4 (cr_log r) = [Some t1; Some t2; Some t3; None] /\
  length (cr_log r) = 11.
Proof. vm_compute. repeat split. Qed.

(* C14: Copy pulls what the longest-lived consumer needs *)
Theorem copy_pulls ts sinks :
  (forall s, In s sinks -> is_rec_or_nil s = true) ->
  NoDup (flat_map (fun s => match rec_id s with Some i => [i] | None => [] end) sinks) ->
  exists n, forall fuel, n <= fuel ->
    cr_pulls (copy fuel (Some (PTokens ts PNil)) sinks [] 0) =
    match sinks with
    | [] => 0
    | _ => if forallb is_nil sinks then Nat.min 1 (length ts) else needed (length ts) sinks
    end.
Proof.
  intros Hrn _ (* NoDup of the ids: not needed; copy_delivery uses it *). apply Forall_forall in Hrn. exists (S (S (length ts))). intros fuel Hf.
  exact (proj1 (proj2 (proj2 (copy_recorders None ts sinks [] 0 fuel Hrn Hf)))).
Qed.

Example copy_pulls_ex :
  let t1 := T KBool (VBool true) in
  map (fun sinks => cr_pulls (copy 9 (Some (PTokens [t1; t1; t1; t1] PNil)) sinks [] 0))
      [[]; [SNil]; [SNil; SRec 1 (Fin 2)]; [SRec 1 (Fin 0); SRec 2 (Fin 3)]; [SRec 1 (Fin 7)]; [SRec 1 ToEnd; SNil]]
  = [0; 1; 2; 3; 4; 4].
Proof. vm_compute. reflexivity. Qed.

(* C15: a failing source, and a recorder that would still be live when the fault occurs (ToEnd, or
   Fin k with k > length ts) *)
Theorem copy_source_fault ts sinks e :
  (forall s, In s sinks -> is_rec_or_nil s = true) ->
  NoDup (flat_map (fun s => match rec_id s with Some i => [i] | None => [] end) sinks) ->
  (exists id l, In (SRec id l) sinks /\ outlives (length ts) l) ->
  exists n, forall fuel, n <= fuel ->
    let r := copy fuel (Some (PTokens ts (PFail e))) sinks [] 0 in
    cr_err r = e /\ cr_pulls r = length ts /\
    (forall id l, In (SRec id l) sinks ->
       log_of id (cr_log r) = map Some (firstn (needs (length ts) (SRec id l)) ts) /\
       ~ In None (log_of id (cr_log r)) /\
       exists q, expected ts l = log_of id (cr_log r) ++ q).
Proof.
  intros Hrn Hnd (id0 & l0 & Hin0 & Hlive). apply Forall_forall in Hrn.
  exists (S (S (length ts))). intros fuel Hf.
  destruct (copy_recorders (Some e) ts sinks [] 0 fuel Hrn Hf) as (Hl & _ & Hp & He).
  cbn [src_end] in *. split; [|split].
  - apply He. right. exists id0, l0. split; [now apply slice_in|exact Hlive].
  - rewrite Hp. exact (pulls_spec_outlived _ _ _ _ Hin0 Hlive).
  - intros id l Hin. rewrite (Hl id l (slice_in id l sinks Hrn Hnd Hin)). cbn [eos_of log_of filter map app].
    split; [apply expg_fault|]. split; [|apply expg_prefix].
    rewrite (expg_fault ts id l). intros Hc. apply in_map_iff in Hc. now destruct Hc as (x & Hx & _).
Qed.

Example copy_source_fault_ex :
  let t1 := T KBool (VBool true) in let t2 := T KNil VNone in
  let r := copy 5 (Some (PTokens [t1; t2] (PFail EFault))) [SRec 1 (Fin 1); SRec 2 ToEnd; SRec 3 (Fin 5)] [] 0 in
  cr_err r = EFault /\ log_of 1 (cr_log r) = [Some t1] /\ log_of 2 (cr_log r) = [Some t1; Some t2]
  /\ log_of 3 (cr_log r) = [Some t1; Some t2].
Proof. vm_compute. repeat split. Qed.

Lemma feed_fail_now fid k t : k <= 1 -> feed (SFail fid k) t = FErr EFault [(fid, t)].
Proof. intros H. destruct k as [|[|k']]; [reflexivity|reflexivity|lia]. Qed.

(* the pass in which the failing sink is due: it is called, and so are some of the others *)
Lemma fault_pass t fid k todo lg : k <= 1 ->
  Forall (fun s => rn s \/ s = SFail fid k) todo -> In (SFail fid k) todo ->
  exists lg', copy_pass (S (S (length todo))) t [] todo lg = inr (EFault, lg') /\
    forall id, exists n, log_of id lg' = log_of id lg ++ repeat t n /\
                         n <= length (filter (has_id id) todo) /\ (id = fid -> 1 <= n).
Proof.
  intros Hk Hs Hin.
  assert (Hsimple : Forall simple todo).
  { revert Hs. apply Forall_impl. intros s [H| ->]; [now apply rn_simple|exact I]. }
  pose proof (fed_err (feed_fail_now fid k t Hk)) as Hbad.
  pose proof (pass_cases t (S (S (length todo))) [] todo lg (Nat.lt_lt_succ_r _ _ (Nat.lt_succ_diag_r _)) Hsimple) as H.
  destruct (copy_pass _ t [] todo lg) as [[out lg']|[e lg']]; cbn [pass_outcome] in H.
  - destruct H as (Hok & _). rewrite Forall_forall in Hok. destruct (Hbad (Hok _ Hin)).
  - destruct H as (-> & fed & s & rest & Hfed & Hs0 & Hbad0 & Ht). exists lg'. split; [reflexivity|].
    intros id. exists (length (filter (has_id id) fed)).
    split; [now rewrite (Ht id), map_const_repeat|]. split.
    + rewrite (Permutation_length (filter_perm (has_id id) _ _ Hfed)), filter_app, app_length. apply Nat.le_add_r.
    + intros ->. assert (s = SFail fid k) as ->.
      { rewrite Forall_forall in Hs. destruct (Hs s) as [Hr|E]; [rewrite Hfed; apply in_or_app; now left| |exact E].
        destruct Hbad0. now apply rn_feeds_ok. }
      assert (Hf : In (SFail fid k) (filter (has_id fid) fed)).
      { apply filter_In. split; [exact Hs0|]. rewrite has_id_fail. apply Nat.eqb_refl. }
      destruct (filter (has_id fid) fed); [destruct Hf|apply le_n_S, Nat.le_0_l].
Qed.

Lemma calls_of_cons t ts : calls_of (t :: ts) = Some t :: calls_of ts.
Proof. reflexivity. Qed.

Lemma expected_head ts l : exists q, expected ts l = hd None (calls_of ts) :: q.
Proof.
  rewrite expected_expg. destruct ts as [|t ts]; [rewrite expg_nil; now exists []|].
  rewrite expg_cons. destruct (life_after l); eexists; reflexivity.
Qed.

Lemma copy_pass_err ts sinks lg p fuel e lg1 : sinks <> [] -> S (S (length ts)) <= fuel ->
  copy_pass (S (S (length sinks))) (hd None (calls_of ts)) [] sinks lg = inr (e, lg1) ->
  exists p', copy fuel (Some (PTokens ts PNil)) sinks lg p = CR e lg1 p'.
Proof.
  intros Hne Hf Hp. destruct (fuel_S _ _ Hf) as (f0 & -> & Hf'). destruct (fuel_S _ _ Hf') as (f & -> & _).
  destruct ts as [|t ts].
  - rewrite (copy_tokens_nil f None) by assumption. cbn [calls_of map app hd] in Hp. rewrite Hp. now eexists.
  - rewrite copy_tokens_cons by assumption. rewrite calls_of_cons in Hp. cbn [hd] in Hp. rewrite Hp. now eexists.
Qed.

Definition sink_fault_spec fid k ts sinks lg (r : copy_result) : Prop :=
  cr_err r = EFault /\
  log_of fid (cr_log r) = log_of fid lg ++ firstn k (calls_of ts) /\
  (forall id l, filter (has_id id) sinks = [SRec id l] ->
     exists q q', log_of id (cr_log r) = log_of id lg ++ q /\ expected ts l = q ++ q') /\
  (forall id, filter (has_id id) sinks = [] -> log_of id (cr_log r) = log_of id lg).

(* the failing sink is due at the next call, a token or the end-of-stream signal *)
Lemma copy_sink_fault_now fid ts sinks lg p fuel :
  Forall (fun s => rn s \/ s = SFail fid 1) sinks -> filter (has_id fid) sinks = [SFail fid 1] ->
  S (S (length ts)) <= fuel ->
  sink_fault_spec fid 1 ts sinks lg (copy fuel (Some (PTokens ts PNil)) sinks lg p).
Proof.
  intros Hs Efid Hf.
  assert (Hin : In (SFail fid 1) sinks) by (apply (filter_In (has_id fid)); rewrite Efid; now left).
  destruct (fault_pass (hd None (calls_of ts)) fid 1 sinks lg (le_n 1) Hs Hin) as (lg1 & Ep & Hlog).
  assert (Hne : sinks <> []) by (intros ->; destruct Hin).
  destruct (copy_pass_err ts sinks lg p fuel _ _ Hne Hf Ep) as [p' ->].
  split; [reflexivity|]. cbn [cr_log]. split; [|split].
  - destruct (Hlog fid) as (n & -> & Hle & Hge). rewrite Efid in Hle.
    rewrite (Nat.le_antisymm n 1 Hle (Hge eq_refl)). destruct ts; reflexivity.
  - intros id l E. destruct (Hlog id) as (n & -> & Hle & _). rewrite E in Hle.
    destruct (expected_head ts l) as [q ->].
    destruct n as [|[|n]]; [exists [], (hd None (calls_of ts) :: q)|exists [hd None (calls_of ts)], q|];
      [split; reflexivity..|].
    destruct (Nat.nle_succ_0 _ (le_S_n _ _ Hle)).
  - intros id E. destruct (Hlog id) as (n & -> & Hle & _). rewrite E in Hle.
    apply Nat.le_0_r in Hle. subst n. apply app_nil_r.
Qed.

Lemma copy_sink_fault_gen fid : forall ts k sinks lg p fuel,
  1 <= k <= S (length ts) ->
  Forall (fun s => rn s \/ s = SFail fid k) sinks -> filter (has_id fid) sinks = [SFail fid k] ->
  S (S (length ts)) <= fuel ->
  sink_fault_spec fid k ts sinks lg (copy fuel (Some (PTokens ts PNil)) sinks lg p).
Proof.
  induction ts as [|t ts IH]; intros k sinks lg p fuel [Hk1 Hk2] Hs Efid Hf; cbn [length] in Hk2.
  { rewrite (Nat.le_antisymm k 1 Hk2 Hk1) in *. now apply copy_sink_fault_now. }
  destruct k as [|[|k]]; [destruct (Nat.nle_succ_0 _ Hk1)|now apply copy_sink_fault_now|].
  destruct (fuel_S _ _ Hf) as (f & -> & Hf'). cbn [length] in Hf'.
  assert (Hsimple : Forall simple sinks).
  { revert Hs. apply Forall_impl. intros s [H| ->]; [now apply rn_simple|exact I]. }
  destruct (copy_step t ts PNil f sinks lg p) as (out & lg1 & -> & Hperm & Hlog);
    [intros ->; discriminate Efid|exact Hsimple| |].
  { revert Hs. apply Forall_impl. intros s [H| ->]; [now apply rn_feeds_ok|exact I]. }
  destruct (IH (S k) out lg1 (S p) f) as (He & Hfid & Hl & Ho);
    [split; [apply le_n_S, Nat.le_0_l|exact (le_S_n _ _ Hk2)]| | |exact Hf'|].
  { apply (Permutation_Forall (Permutation_sym Hperm)), Forall_flat_map. revert Hs. apply Forall_impl. intros s [H| ->].
    - generalize (upd1_rn (Some t) s H). apply Forall_impl. now left.
    - constructor; [now right|constructor]. }
  { apply (slice_step _ _ _ _ _ Hsimple Hperm); [now rewrite Efid|apply le_n]. }
  split; [exact He|]. split; [|split].
  - rewrite Hfid, (Hlog fid), Efid, <- app_assoc. reflexivity.
  - intros id l E. rewrite expected_expg, expg_cons.
    pose proof (slice_rec t sinks out id l Hsimple Hperm E) as E'. destruct (life_after l) as [l'|].
    + destruct (Hl id l' E') as (q & q' & -> & Hq). exists (Some t :: q), q'.
      split; [rewrite (Hlog id), E, <- app_assoc; reflexivity|]. rewrite <- expected_expg, Hq. reflexivity.
    + exists [Some t], []. split; [|reflexivity]. rewrite (Ho id E'), (Hlog id), E. reflexivity.
  - intros id E. rewrite (Ho id (slice_none _ _ _ _ Hsimple Hperm E)), (Hlog id), E. apply app_nil_r.
Qed.

(* C15: recorders plus one sink whose k-th call fails *)
Theorem copy_sink_fault ts recs fid k :
  (forall s, In s recs -> is_rec_or_nil s = true) ->
  NoDup (fid :: flat_map (fun s => match rec_id s with Some i => [i] | None => [] end) recs) ->
  1 <= k <= length ts + 1 ->
  exists n, forall fuel, n <= fuel ->
    let r := copy fuel (Some (PTokens ts PNil)) (recs ++ [SFail fid k]) [] 0 in
    cr_err r = EFault /\
    log_of fid (cr_log r) = firstn k (calls_of ts) /\ length (log_of fid (cr_log r)) = k /\
    (forall id l, In (SRec id l) recs -> exists q, expected ts l = log_of id (cr_log r) ++ q).
Proof.
  intros Hrn Hnd Hk. apply Forall_forall in Hrn. inversion Hnd as [|? ? Hfid Hnd']; subst.
  exists (S (S (length ts))). intros fuel Hf.
  assert (Hslice : forall id, filter (has_id id) (recs ++ [SFail fid k]) =
                              filter (has_id id) recs ++ if Nat.eqb fid id then [SFail fid k] else []).
  { intros id. rewrite filter_app. cbn [filter]. rewrite has_id_fail. now destruct (Nat.eqb fid id). }
  rewrite Nat.add_1_r in Hk.
  destruct (copy_sink_fault_gen fid ts k (recs ++ [SFail fid k]) [] 0 fuel Hk) as (He & Hfl & Hl & _).
  - apply Forall_app. split; [revert Hrn; apply Forall_impl; now left|]. constructor; [now right|constructor].
  - now rewrite Hslice, (slice_out _ _ Hrn Hfid), Nat.eqb_refl.
  - exact Hf.
  - split; [exact He|]. split; [exact Hfl|]. split.
    + rewrite Hfl. cbn [log_of filter map app]. rewrite firstn_length. unfold calls_of.
      rewrite app_length, map_length. cbn [length]. rewrite Nat.add_1_r. exact (Nat.min_l _ _ (proj2 Hk)).
    + intros id l Hin. destruct (Hl id l) as (q & q' & -> & Hq); [|now exists q'].
      rewrite Hslice, (slice_in id l recs Hrn Hnd' Hin).
      destruct (Nat.eqb_spec fid id) as [->|_]; [|reflexivity].
      destruct Hfid. apply in_rec_ids. now exists l.
Qed.

Example copy_sink_fault_ex :
  let t1 := T KBool (VBool true) in let t2 := T KNil VNone in
  let r := copy 6 (Some (PTokens [t1; t2; t1] PNil)) ([SRec 1 ToEnd; SRec 2 (Fin 2)] ++ [SFail 7 3]) [] 0 in
  cr_err r = EFault /\ log_of 7 (cr_log r) = [Some t1; Some t2; Some t1] /\
  log_of 1 (cr_log r) = [Some t1; Some t2; Some t1] /\ log_of 2 (cr_log r) = [Some t1; Some t2].
Proof. vm_compute. repeat split. Qed.

Lemma sink_run_nil calls lg : sink_run SNil calls lg = SRDone lg calls.
Proof. destruct calls; reflexivity. Qed.

Lemma sink_run_cons s c r lg : is_nil s = false ->
  sink_run s (c :: r) lg =
  match feed s c with FErr e lg' => SRErr e (lg ++ lg') | FOk s' lg' => sink_run s' r (lg ++ lg') end.
Proof. intros H. cbn [sink_run]. now rewrite H. Qed.

Lemma filter_sink_gen id p : forall ts lg,
  sink_run (SFilter (SRec id ToEnd) p) (calls_of ts) lg =
  SRDone (lg ++ map (fun t => (id, Some t)) (filter (holds p) ts) ++ [(id, None)]) [].
Proof.
  induction ts as [|t ts IH]; intros lg.
  - reflexivity.
  - rewrite calls_of_cons, sink_run_cons by reflexivity. cbn [feed is_nil filter].
    destruct (holds p t).
    + cbn [is_nil]. rewrite IH. cbn [map app]. now rewrite <- app_assoc.
    + rewrite IH. now rewrite app_nil_r.
Qed.

Theorem filter_sink id p ts :
  sink_run (SFilter (SRec id ToEnd) p) (calls_of ts) [] =
  SRDone (map (fun t => (id, Some t)) (filter (holds p) ts) ++ [(id, None)]) [].
Proof. apply (filter_sink_gen id p ts []). Qed.

Example filter_sink_ex :
  sink_run (SFilter (SRec 1 ToEnd) (PNot (PKindIn [KNil])))
           (calls_of [T KNil VNone; T KBool (VBool true); T KNil VNone; T KInt (VI WNat 3)]) [] =
  SRDone [(1, Some (T KBool (VBool true))); (1, Some (T KInt (VI WNat 3))); (1, None)] [].
Proof. reflexivity. Qed.

Lemma feed_concat h r c :
  feed (SConcat (h :: r)) c =
  match feed h c with FErr e lg => FErr e lg | FOk h' lg => FOk (mk_concat (h' :: r)) lg end.
Proof. reflexivity. Qed.

Lemma mk_concat_cons_nil h r : is_nil h = true -> mk_concat (h :: r) = mk_concat r.
Proof. intros H. unfold mk_concat. cbn [drop_nil]. now rewrite H. Qed.

Lemma mk_concat_cons h r : is_nil h = false -> mk_concat (h :: r) = SConcat (h :: r).
Proof. intros H. unfold mk_concat. cbn [drop_nil]. now rewrite H. Qed.

(* the concatenation runs its head until that finishes, then goes on with the others on the
   calls the head has not consumed: the call on which the head finished is not offered again *)
Lemma concat_run r : forall calls h lg, is_nil h = false ->
  sink_run (SConcat (h :: r)) calls lg =
  match sink_run h calls lg with
  | SRDone lg' rest => sink_run (mk_concat r) rest lg'
  | SRLive h' lg' => SRLive (SConcat (h' :: r)) lg'
  | SRErr e lg' => SRErr e lg'
  end.
Proof.
  induction calls as [|c cs IH]; intros h lg Hh.
  - cbn [sink_run is_nil]. now rewrite Hh.
  - rewrite !sink_run_cons by (assumption || reflexivity). rewrite feed_concat.
    destruct (feed h c) as [h' lg1|e lg1]; [|reflexivity].
    destruct (is_nil h') eqn:En.
    + rewrite mk_concat_cons_nil by assumption.
      destruct h'; try discriminate En. now rewrite sink_run_nil.
    + rewrite mk_concat_cons by assumption. now apply IH.
Qed.

Lemma rec_fin_run id extra : forall ts k lg, 1 <= k <= length ts ->
  sink_run (SRec id (Fin k)) (map Some ts ++ extra) lg =
  SRDone (lg ++ map (fun t => (id, Some t)) (firstn k ts)) (map Some (skipn k ts) ++ extra).
Proof.
  induction ts as [|t ts IH]; intros k lg Hk; [cbn in Hk; lia|].
  cbn [map app]. rewrite sink_run_cons by reflexivity.
  destruct k as [|[|k']]; [lia| |].
  - cbn [feed firstn skipn map]. now rewrite sink_run_nil.
  - cbn [feed]. rewrite IH by (cbn [length] in Hk; lia).
    cbn [firstn skipn map]. now rewrite <- app_assoc.
Qed.

Lemma rec_run id : forall ts l lg, exists rest,
  sink_run (SRec id l) (calls_of ts) lg = SRDone (lg ++ map (fun c => (id, c)) (expected ts l)) rest.
Proof.
  induction ts as [|t ts IH]; intros l lg.
  - exists []. rewrite expected_expg, expg_nil. reflexivity.
  - rewrite calls_of_cons, sink_run_cons by reflexivity. rewrite feed_rec, expected_expg, expg_cons.
    destruct (life_after l) as [l'|].
    + destruct (IH l' (lg ++ [(id, Some t)])) as [rest E]. exists rest. rewrite E.
      cbn [map]. rewrite <- app_assoc. reflexivity.
    + exists (calls_of ts). now rewrite sink_run_nil.
Qed.

Lemma calls_of_skipn k ts : map Some (skipn k ts) ++ [None] = calls_of (skipn k ts).
Proof. reflexivity. Qed.

(* sinks finishing after k1, k2, ... tokens, then a last recorder *)
Fixpoint chunks (specs : list (nat * nat)) (ts : list token) : list delivery * list token :=
  match specs with
  | [] => ([], ts)
  | (i, k) :: r => let '(lg, rem) := chunks r (skipn k ts) in
                   (map (fun t => (i, Some t)) (firstn k ts) ++ lg, rem)
  end.
Fixpoint fits (specs : list (nat * nat)) (ts : list token) : Prop :=
  match specs with
  | [] => True
  | (i, k) :: r => 1 <= k <= length ts /\ fits r (skipn k ts)
  end.

Theorem concat_sinks_nary b l : forall specs ts lg, fits specs ts ->
  exists rest,
    sink_run (mk_concat (map (fun s => SRec (fst s) (Fin (snd s))) specs ++ [SRec b l])) (calls_of ts) lg =
    SRDone (lg ++ fst (chunks specs ts) ++ map (fun c => (b, c)) (expected (snd (chunks specs ts)) l)) rest.
Proof.
  induction specs as [|[i k] specs IH]; intros ts lg Hfit.
  - cbn [map app chunks fst snd]. rewrite mk_concat_cons by reflexivity.
    rewrite concat_run by reflexivity. destruct (rec_run b ts l lg) as [rest E]. rewrite E.
    exists rest. cbn [mk_concat drop_nil]. now rewrite sink_run_nil.
  - destruct Hfit as [Hk Hfit]. cbn [map app fst snd chunks]. rewrite mk_concat_cons by reflexivity.
    unfold calls_of at 1. rewrite concat_run by reflexivity. rewrite rec_fin_run by assumption.
    rewrite calls_of_skipn.
    destruct (IH (skipn k ts) (lg ++ map (fun t => (i, Some t)) (firstn k ts)) Hfit) as [rest E].
    cbn [fst snd] in E. rewrite E. exists rest.
    destruct (chunks specs (skipn k ts)) as [lg2 rem]. cbn [fst snd]. now rewrite <- !app_assoc.
Qed.

Theorem concat_sinks_seq a k b l ts : 1 <= k <= length ts ->
  exists rest,
    sink_run (mk_concat [SRec a (Fin k); SRec b l]) (calls_of ts) [] =
    SRDone (map (fun t => (a, Some t)) (firstn k ts) ++
            map (fun c => (b, c)) (expected (skipn k ts) l)) rest.
Proof.
  intros Hk. destruct (concat_sinks_nary b l [(a, k)] ts [] (conj Hk I)) as [rest E].
  cbn [map app fst snd chunks] in E. rewrite app_nil_r in E. now exists rest.
Qed.

Example concat_sinks_ex :
  let t n := T KInt (VI WNat n) in
  sink_run (mk_concat [SRec 1 (Fin 2); SRec 2 (Fin 1); SRec 3 ToEnd]) (calls_of [t 1%Z; t 2%Z; t 3%Z; t 4%Z]) [] =
  SRDone [(1, Some (t 1%Z)); (1, Some (t 2%Z)); (2, Some (t 3%Z)); (3, Some (t 4%Z)); (3, None)] [].
Proof. reflexivity. Qed.

(* the two local functions of [collect_value_step] (Model/Sinks.v) under names of their own, [finish]
   without its [inl]; [collect_value_step_eq] ties them to the model by [reflexivity] *)
Fixpoint pop_names (st : list cframe) : list cframe :=
  match st with CFName :: r => pop_names r | _ => st end.
Definition finish (st : list cframe) : list cframe * bool :=
  let st' := pop_names st in (st', match st' with [] => true | _ => false end).

Lemma collect_value_step_eq stack t :
  collect_value_step stack t =
  let k := kind t in
  if is_end_kind k then
    match stack with
    | CFEnd e :: r => if (e =? k)%N then inl (finish r) else inr EUnexpEndTok
    | _ => inr EUnexpEndTok
    end
  else if is_open_kind k then inl (CFEnd (end_of k) :: stack, false)
  else if (k =? KTypeName)%N then inl (CFName :: stack, false)
  else inl (finish stack).
Proof. reflexivity. Qed.

Definition cv_sink (id : nat) (st : list cframe) : sink :=
  match st with [] => SNil | _ => SCollectValue id st end.

Lemma feed_cv_finish id st st0 t : collect_value_step st t = inl (finish st0) ->
  feed (SCollectValue id st) (Some t) = FOk (cv_sink id (pop_names st0)) [(id, Some t)].
Proof. intros H. cbn [feed]. rewrite H. unfold finish. destruct (pop_names st0); reflexivity. Qed.

Lemma feed_cv_push id st fr t : collect_value_step st t = inl (fr :: st, false) ->
  feed (SCollectValue id st) (Some t) = FOk (SCollectValue id (fr :: st)) [(id, Some t)].
Proof. intros H. cbn [feed]. now rewrite H. Qed.

Lemma open_cases ko : is_open_kind ko = true ->
  ko = KArray \/ ko = KObject \/ ko = KMap \/ ko = KTuple.
Proof.
  unfold is_open_kind. intros H. repeat (apply orb_prop in H; destruct H as [H|H]); apply N.eqb_eq in H; auto.
Qed.

Lemma open_not_end ko : is_open_kind ko = true -> is_end_kind ko = false.
Proof. intros H. destruct (open_cases ko H) as [->|[->|[->| ->]]]; reflexivity. Qed.

Lemma end_of_is_end ko : is_open_kind ko = true -> is_end_kind (end_of ko) = true.
Proof. intros H. destruct (open_cases ko H) as [->|[->|[->| ->]]]; reflexivity. Qed.

Lemma step_open st ko v : is_open_kind ko = true ->
  collect_value_step st (T ko v) = inl (CFEnd (end_of ko) :: st, false).
Proof.
  intros H. rewrite collect_value_step_eq. cbn [kind]. cbv zeta. now rewrite (open_not_end ko H), H.
Qed.

Lemma step_close st ko v : is_open_kind ko = true ->
  collect_value_step (CFEnd (end_of ko) :: st) (T (end_of ko) v) = inl (finish st).
Proof.
  intros H. rewrite collect_value_step_eq. cbn [kind]. cbv zeta.
  now rewrite (end_of_is_end ko H), N.eqb_refl.
Qed.

Lemma step_name st n : collect_value_step st (T KTypeName (VStr n)) = inl (CFName :: st, false).
Proof. reflexivity. Qed.

Lemma step_leaf st t : is_leaf_token t = true -> collect_value_step st t = inl (finish st).
Proof.
  unfold is_leaf_token. intros H. apply andb_prop in H. destruct H as [H H3].
  apply andb_prop in H. destruct H as [H1 H2]. rewrite negb_true_iff in H1, H2, H3.
  rewrite collect_value_step_eq. cbv zeta. now rewrite H2, H1, H3.
Qed.

Definition tlog (id : nat) (ts : list token) : list delivery := map (fun t => (id, Some t)) ts.

Lemma tlog_app id a b : tlog id (a ++ b) = tlog id a ++ tlog id b.
Proof. apply map_app. Qed.

(* feeding one value on top of any stack: the type names waiting for it are popped (also
   directly nested ones), everything below is left as it was *)
Definition cv_passes (id : nat) (v : value) : Prop := forall st rest lg,
  sink_run (SCollectValue id st) (map Some (flatten v) ++ rest) lg =
  sink_run (cv_sink id (pop_names st)) rest (lg ++ tlog id (flatten v)).

Lemma cv_items id e st items : Forall (cv_passes id) items -> forall lg tail,
  sink_run (SCollectValue id (CFEnd e :: st)) (map Some (flat_map flatten items) ++ tail) lg =
  sink_run (SCollectValue id (CFEnd e :: st)) tail (lg ++ tlog id (flat_map flatten items)).
Proof.
  induction 1 as [|x r Hx Hr IHr]; intros lg tail.
  - cbn [flat_map map app tlog]. now rewrite app_nil_r.
  - cbn [flat_map]. rewrite map_app, <- app_assoc, Hx. cbn [pop_names cv_sink].
    rewrite IHr. now rewrite tlog_app, app_assoc.
Qed.

Lemma cv_value id : forall v, wf_value v = true -> cv_passes id v.
Proof.
  induction v as [t|ko kc items IH|n v IH] using value_ind2; intros Hwf st rest lg.
  - cbn [wf_value] in Hwf. apply andb_prop in Hwf. destruct Hwf as [Hl _].
    cbn [flatten map app]. rewrite sink_run_cons by reflexivity.
    now rewrite (feed_cv_finish id st st t (step_leaf st t Hl)).
  - cbn [wf_value] in Hwf. apply andb_prop in Hwf. destruct Hwf as [Hwf Hitems].
    apply andb_prop in Hwf. destruct Hwf as [Ho Hc]. apply N.eqb_eq in Hc. subst kc.
    assert (Hall : Forall (cv_passes id) items).
    { rewrite Forall_forall in *. rewrite forallb_forall in Hitems. auto. }
    cbn [flatten map app]. rewrite sink_run_cons by reflexivity.
    rewrite (feed_cv_push id st _ _ (step_open st ko VNone Ho)).
    rewrite map_app, <- app_assoc, (cv_items id _ st items Hall). cbn [map app].
    rewrite sink_run_cons by reflexivity.
    rewrite (feed_cv_finish id _ st _ (step_close st ko VNone Ho)).
    f_equal. unfold tlog. cbn [map]. rewrite map_app. cbn [map]. now rewrite <- !app_assoc.
  - cbn [wf_value] in Hwf. apply andb_prop in Hwf. destruct Hwf as [_ Hv].
    cbn [flatten map app]. rewrite sink_run_cons by reflexivity.
    rewrite (feed_cv_push id st _ _ (step_name st n)). rewrite (IH Hv). cbn [pop_names].
    f_equal. unfold tlog. cbn [map]. now rewrite <- app_assoc.
Qed.

Theorem collect_value id v rest : wf_value v = true ->
  sink_run (SCollectValue id []) (map Some (flatten v) ++ rest) [] =
  SRDone (map (fun t => (id, Some t)) (flatten v)) rest.
Proof. intros H. rewrite (cv_value id v H). cbn [pop_names cv_sink app]. apply sink_run_nil. Qed.

(* exactly one value is collected: directly nested type names, and more tokens behind *)
Example collect_value_ex :
  let v := Named [1%N] (Named [2%N] (Comp KArray KArrayEnd
             [Named [3%N] (Named [4%N] (Leaf (T KNil VNone))); Comp KMap KMapEnd []; Leaf (T KBool (VBool true))])) in
  let more := [Some (T KNil VNone); Some (T KArrayEnd VNone); None] in
  wf_value v = true /\
  sink_run (SCollectValue 5 []) (map Some (flatten v) ++ more) [] =
  SRDone (map (fun t => (5, Some t)) (flatten v)) more.
Proof. vm_compute. split; reflexivity. Qed.

Theorem collect_value_stray_end id t rest : is_end_kind (kind t) = true ->
  sink_run (SCollectValue id []) (Some t :: rest) [] = SRErr EUnexpEndTok [(id, Some t)].
Proof.
  intros H. rewrite sink_run_cons by reflexivity. cbn [feed]. rewrite collect_value_step_eq.
  cbv zeta. now rewrite H.
Qed.

Theorem collect_value_unclosed id ko kc items : wf_value (Comp ko kc items) = true ->
  sink_run (SCollectValue id []) (map Some (T ko VNone :: flat_map flatten items) ++ [None]) [] =
  SRErr EEnd (map (fun t => (id, Some t)) (T ko VNone :: flat_map flatten items)).
Proof.
  intros Hwf. cbn [wf_value] in Hwf. apply andb_prop in Hwf. destruct Hwf as [Hwf Hitems].
  apply andb_prop in Hwf. destruct Hwf as [Ho _].
  cbn [map app]. rewrite sink_run_cons by reflexivity.
  rewrite (feed_cv_push id [] _ _ (step_open [] ko VNone Ho)).
  assert (Hall : Forall (cv_passes id) items).
  { apply Forall_forall. intros x Hx. rewrite forallb_forall in Hitems. apply cv_value, Hitems, Hx. }
  rewrite (cv_items id _ [] items Hall). cbn [sink_run is_nil feed app]. now rewrite app_nil_r.
Qed.

(* "the run of s over these calls ends in an error", without the logs *)
Fixpoint fails (s : sink) (calls : list (option token)) : bool :=
  match calls with
  | [] => false
  | c :: r => if is_nil s then false
              else match feed s c with FErr _ _ => true | FOk s' _ => fails s' r end
  end.

Lemma fails_is_nil s calls : is_nil s = true -> fails s calls = false.
Proof. intros H. destruct calls; cbn [fails]; [reflexivity|now rewrite H]. Qed.

Lemma sink_run_fails : forall calls s lg,
  match sink_run s calls lg with SRErr _ _ => fails s calls = true | _ => fails s calls = false end.
Proof.
  induction calls as [|c r IH]; intros s lg; cbn [sink_run fails].
  - destruct (is_nil s); reflexivity.
  - destruct (is_nil s); [reflexivity|]. destruct (feed s c) as [s' lg'|e lg']; [apply IH|reflexivity].
Qed.

Lemma sink_ok_fails s ts : sink_ok s ts <-> fails s (calls_of ts) = false.
Proof.
  unfold sink_ok. pose proof (sink_run_fails (calls_of ts) s []) as H.
  destruct (sink_run s (calls_of ts) []); rewrite H; split; intros H0; try exact I; try reflexivity;
    try (destruct H0; fail); discriminate H0.
Qed.

Definition swapr (rest : list (bool * fres)) : list (bool * fres) :=
  match rest with [] => [] | _ => last rest (true, FErr EOther []) :: removelast rest end.

Lemma swapr_perm rest : Permutation (swapr rest) rest.
Proof. apply swap_last_perm. Qed.

Definition alt_end (done : list sink) (le : option eclass) (lg : list delivery) : fres :=
  match done with
  | [] => match le with Some e => FErr e lg | None => FOk SNil lg end
  | [one] => FOk one lg
  | _ => FOk (SAlt done) lg
  end.

Lemma alt_loop_nil f done lg le : alt_loop (S f) done [] lg le = alt_end done le lg.
Proof. reflexivity. Qed.

Lemma alt_loop_S f done b r rest lg le :
  alt_loop (S f) done ((b, r) :: rest) lg le =
  if b then FErr EPanic lg
  else match r with
       | FErr e lg' => alt_loop f done (swapr rest) (lg ++ lg') (Some e)
       | FOk a' lg' => if is_nil a' then FOk SNil (lg ++ lg')
                       else alt_loop f (done ++ [a']) rest (lg ++ lg') le
       end.
Proof. reflexivity. Qed.

Lemma feed_alt ss t :
  feed (SAlt ss) t = alt_loop (S (length ss)) [] (map (fun a => (is_nil a, feed a t)) ss) [] None.
Proof. reflexivity. Qed.

Definition fails_after (r : list (option token)) (x : fres) : bool :=
  match x with FErr _ _ => true | FOk s' _ => fails s' r end.

Lemma fails_cons s c r : is_nil s = false -> fails s (c :: r) = fails_after r (feed s c).
Proof. intros H. cbn [fails]. now rewrite H. Qed.

(* The loop of alt_sink.go, given that AltSink is right about the remaining calls r (alt_r):
   it succeeds as soon as one alternative returns nil, goes on with the survivors otherwise,
   and fails only if nobody survives; so it fails later exactly if all alternatives do. *)
Lemma alt_loop_fails r :
  (forall alts, alts <> [] -> Forall (fun a => is_nil a = false) alts ->
                fails (SAlt alts) r = forallb (fun a => fails a r) alts) ->
  forall fuel done todo lg le,
  length todo < fuel -> Forall (fun x => fst x = false) todo ->
  Forall (fun a => is_nil a = false) done -> (done = [] -> todo = [] -> le <> None) ->
  fails_after r (alt_loop fuel done todo lg le) =
  forallb (fun a => fails a r) done && forallb (fun x => fails_after r (snd x)) todo.
Proof.
  intros alt_r. induction fuel as [|f IH]; intros done todo lg le Hf Hb Hd Hle; [destruct (Nat.nlt_0_r _ Hf)|].
  destruct todo as [|[b x] rest]; [|apply Nat.succ_lt_mono in Hf].
  - rewrite alt_loop_nil, andb_true_r. destruct done as [|a [|a2 done]]; cbn [alt_end].
    + now destruct le as [e|]; [|destruct Hle].
    + cbn [fails_after forallb]. now rewrite andb_true_r.
    + apply alt_r; [discriminate|exact Hd].
  - inversion Hb as [|? ? Hb1 Hb2]; subst. cbn [fst] in Hb1. subst b.
    rewrite alt_loop_S. cbn [forallb snd]. destruct x as [a' lg1|e lg1]; cbn [fails_after andb].
    + destruct (is_nil a') eqn:En.
      * cbn [fails_after]. rewrite (fails_is_nil SNil), (fails_is_nil a') by assumption || reflexivity.
        now rewrite andb_false_r.
      * rewrite IH; [|exact Hf|assumption|apply Forall_app; split; [assumption|now constructor]|now destruct done].
        rewrite forallb_app. cbn [forallb]. rewrite andb_true_r. symmetry. apply andb_assoc.
    + rewrite IH, (forallb_perm _ _ _ (swapr_perm rest)); [reflexivity| |
        exact (Permutation_Forall (Permutation_sym (swapr_perm rest)) Hb2)|assumption|discriminate].
      rewrite (Permutation_length (swapr_perm rest)). exact Hf.
Qed.

Theorem fails_alt : forall calls alts,
  alts <> [] -> Forall (fun a => is_nil a = false) alts ->
  fails (SAlt alts) calls = forallb (fun a => fails a calls) alts.
Proof.
  induction calls as [|c r IH]; intros alts Hne Hnn.
  - destruct alts as [|a alts]; [congruence|reflexivity].
  - rewrite fails_cons, feed_alt by reflexivity.
    rewrite (alt_loop_fails r IH); [|rewrite map_length; apply Nat.lt_succ_diag_r| |constructor|now destruct alts].
    + cbn [forallb andb]. induction Hnn as [|a alts Ha Hnn IHa]; [reflexivity|].
      cbn [map forallb snd]. rewrite fails_cons by assumption. destruct alts; [reflexivity|].
      now rewrite IHa.
    + apply Forall_forall. intros x Hx. apply in_map_iff in Hx. destruct Hx as (a & <- & Ha).
      rewrite Forall_forall in Hnn. exact (Hnn a Ha).
Qed.

Lemma forallb_false_iff {A} (f : A -> bool) l :
  forallb f l = false <-> exists x, In x l /\ f x = false.
Proof.
  induction l as [|x l IH]; cbn [forallb]; [split; [discriminate|now intros (x & [] & _)]|].
  rewrite andb_false_iff, IH. split.
  - intros [H|(y & Hy & H)]; [exists x|exists y]; split; auto; now left + right.
  - intros (y & [<-|Hy] & H); [now left|right; now exists y].
Qed.

Theorem alt_sink alts ts : alts <> [] -> (forall a, In a alts -> is_nil a = false) ->
  (sink_ok (SAlt alts) ts <-> exists a, In a alts /\ sink_ok a ts).
Proof.
  intros Hne Hnn. apply Forall_forall in Hnn.
  rewrite sink_ok_fails, (fails_alt _ alts Hne Hnn), forallb_false_iff.
  split; intros (a & Ha & H); exists a; (split; [exact Ha|]); now apply sink_ok_fails.
Qed.

(* the documented edge: no alternative at all accepts everything *)
Example alt_empty_accepts ts : sink_ok (SAlt []) ts.
Proof.
  apply sink_ok_fails. destruct ts as [|t ts]; [reflexivity|].
  rewrite calls_of_cons. cbn [fails is_nil]. rewrite feed_alt. cbn [length map alt_loop].
  now apply fails_is_nil.
Qed.

Example alt_sink_ex :
  let t1 := T KBool (VBool true) in
  let alts := [SFail 1 2; SFilter (SFail 3 1) (PKindIn [KNil])] in
  (fails (SAlt alts) (calls_of [t1; t1]), fails (SAlt alts) (calls_of []),
   fails (SAlt (alts ++ [SRec 4 (Fin 3)])) (calls_of [t1; t1]),
   fails (SAlt (SRec 4 (Fin 3) :: alts)) (calls_of [t1; t1])) = (true, false, false, false).
Proof. vm_compute. reflexivity. Qed.

Print Assumptions copy_delivery.
Print Assumptions copy_pulls.
Print Assumptions copy_source_fault.
Print Assumptions copy_sink_fault.
Print Assumptions filter_sink.
Print Assumptions concat_sinks_seq.
Print Assumptions concat_sinks_nary.
Print Assumptions collect_value.
Print Assumptions collect_value_stray_end.
Print Assumptions collect_value_unclosed.
Print Assumptions alt_sink.
