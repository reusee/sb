(* Abstract/MemoSchedules.v — the package-level CACHES of sb under arbitrary interleavings (C19, second half; the
   scratch-buffer pools are Abstract/PoolSchedules.v).

   Section Memo: a sync.Map used as a memo table of a pure function f : key -> val
     type_name.go        typeToName            TypeName(t)          (Load; compute; deferred Store)
     deprecated_fields.go fieldIsDeprecatedMap fieldIsDeprecated(t, field)   (Load; compute; deferred Store)
   A lookup is at least two atomic actions on the shared table (Load, later Store) with other threads running in
   between.  Three variants of the Go pattern are modelled: Store-then-return, return-then-(deferred)-Store and
   LoadOrStore.  Theorems, for ALL schedules: every obtained value is f key; the table only grows; the table only
   holds keys somebody asked for; each thread's log is its program in order; a finished thread's log is literally
   the log of the same thread run alone.

   Section NestedMemo: the memoised function calls itself between its Load and its deferred Store
   (TypeName of a pointer type asks for the name of the element type), so a thread holds a stack of open frames.
   Same theorem: every completed lookup obtains f key and every table entry is right, for ALL schedules.

   Section Registry: registeredNameToType / registeredTypeToName, written by Register with one
   LoadOrStore each, read by unmarshal (name -> type) and marshal (type -> name).  This is NOT a memo of a pure
   function: a reader may run before or after a concurrent Register.  What is guaranteed: entries never change
   (monotone); a Register that completed is seen in both directions by every later read (for collision-free type
   names - refuted otherwise); between the two LoadOrStores one direction only is visible (concrete schedule); a
   reader whose queries are each either already answered when it starts or not touched by any pending registration
   obtains, under every schedule, exactly the answers it obtains alone.

   What a Gallina model cannot exhibit (Go memory model, races on other memory) is the stress run's job. *)
From Coq Require Import List Arith Lia Bool.
Import ListNotations.

Definition tid := nat.
Definition key := nat.
Definition val := nat.

Definition upd {A} (f : nat -> A) (k : nat) (v : A) : nat -> A := fun x => if Nat.eqb x k then v else f x.

Lemma upd_same {A} (f : nat -> A) k v : upd f k v k = v.
Proof. unfold upd. now rewrite Nat.eqb_refl. Qed.
Lemma upd_other {A} (f : nat -> A) k v x : x <> k -> upd f k v x = f x.
Proof. unfold upd. intros H. destruct (Nat.eqb_spec x k); [contradiction|reflexivity]. Qed.

Lemma upd_forall {A} (P : nat -> A -> Prop) (g : nat -> A) k v :
  P k v -> (forall x, P x (g x)) -> forall x, P x (upd g k v x).
Proof.
  intros Hv Hg x. destruct (Nat.eq_dec x k) as [->|Hne]; [now rewrite upd_same|now rewrite upd_other].
Qed.

Lemma upd_Some_forall {A} (Q : nat -> A -> Prop) (m : nat -> option A) k v :
  Q k v -> (forall x y, m x = Some y -> Q x y) -> forall x y, upd m k (Some v) x = Some y -> Q x y.
Proof.
  intros Hv Hm. apply (upd_forall (fun x o => forall y, o = Some y -> Q x y)); [|exact Hm]. now intros y [= <-].
Qed.

(* [run], [nrun] and [rrun] below are left folds of a step function over the schedule *)
Lemma fold_left_preserves {A B} (P : A -> Prop) (g : A -> B -> A) :
  (forall a b, P a -> P (g a b)) -> forall l a, P a -> P (fold_left g l a).
Proof. intros Hg l. induction l as [|b l IH]; intros a Ha; cbn [fold_left]; [exact Ha|]. apply IH, Hg, Ha. Qed.

(* a schedule is the list of thread ids the scheduler picks, one atomic action each *)
Definition schedule := list tid.

(* which Go pattern the lookup uses after a missed Load:
     Plain : v := f(k); cache.Store(k, v); return v
     Defer : defer cache.Store(k, ret); ...; return f(k)      (type_name.go, deprecated_fields.go)
     LOS   : v := f(k); actual, _ := cache.LoadOrStore(k, v); return actual *)
Inductive mode := Plain | Defer | LOS.
Definition op := (mode * key)%type.

Inductive tstate :=
| Idle (todo : list op)                                     (* next: Load of the head's key *)
| Computed (m : mode) (k : key) (v : val) (todo : list op)  (* Load missed; v computed locally; table not yet written *)
| Returning (k : key) (v : val) (todo : list op)            (* table written; about to return v *)
| DeferStore (k : key) (v : val) (todo : list op)           (* v already returned; deferred Store pending *)
| Finished.

Record sys := {
  tbl : key -> option val;               (* the sync.Map *)
  th : tid -> tstate;
  results : list (tid * key * val)       (* (thread, key, obtained value), newest first *)
}.

Definition keys (p : list op) : list key := map snd p.

(* the lookups thread-state [st] has still to complete (record), in order *)
Definition pending (st : tstate) : list key :=
  match st with
  | Idle todo => keys todo
  | Computed _ k _ todo => k :: keys todo
  | Returning k _ todo => k :: keys todo
  | DeferStore _ _ todo => keys todo
  | Finished => []
  end.

(* the keys [st] may still Store: [pending], and at [DeferStore] also the key whose value has been
   returned but not yet stored; for [Req], every key in the table is a key of some program *)
Definition cur_keys (st : tstate) : list key :=
  match st with
  | Idle todo => keys todo
  | Computed _ k _ todo => k :: keys todo
  | Returning k _ todo => k :: keys todo
  | DeferStore k _ todo => k :: keys todo
  | Finished => []
  end.

Definition log_of (t : tid) (rs : list (tid * key * val)) : list (key * val) :=
  map (fun r => (snd (fst r), snd r)) (filter (fun r => Nat.eqb (fst (fst r)) t) rs).

Lemma log_of_cons_same t k v rs : log_of t ((t, k, v) :: rs) = (k, v) :: log_of t rs.
Proof. unfold log_of. cbn [filter fst snd]. rewrite Nat.eqb_refl. reflexivity. Qed.
Lemma log_of_cons_other t t' k v rs : t' <> t -> log_of t ((t', k, v) :: rs) = log_of t rs.
Proof. intros H. unfold log_of. cbn [filter fst snd]. destruct (Nat.eqb_spec t' t); [contradiction|reflexivity]. Qed.
Lemma log_of_In t k v rs : In (k, v) (log_of t rs) -> In (t, k, v) rs.
Proof.
  unfold log_of. intros H. apply in_map_iff in H. destruct H as ([[t' k'] v'] & [= <- <-] & H).
  apply filter_In in H. destruct H as (H & Ht). cbn [fst snd] in Ht. apply Nat.eqb_eq in Ht. now subst.
Qed.

(* what one atomic action does to the shared state besides moving its own thread on: nothing, one Store into the
   table, or one value handed back to the caller (recorded) *)
Inductive effect := Silent | Stores (k : key) (v : val) | Returns (k : key) (v : val).

Definition effect_on (s : sys) (t : tid) (st' : tstate) (e : effect) : sys :=
  {| tbl := match e with Stores k v => upd (tbl s) k (Some v) | _ => tbl s end;
     th := upd (th s) t st';
     results := match e with Returns k v => (t, k, v) :: results s | _ => results s end |}.

Section Memo.
  Variable f : key -> val.     (* the cached pure function: TypeName, the deprecation verdict *)

  (* one atomic action of thread t.  The local computation v := f k is merged with the preceding Load: it touches no
     shared state, so nothing can be observed between them; what matters is the window Load ... Store. *)
  Definition step (s : sys) (t : tid) : sys :=
    match th s t with
    | Idle [] => {| tbl := tbl s; th := upd (th s) t Finished; results := results s |}
    | Idle ((m, k) :: todo) =>
        match tbl s k with
        | Some v => (* Load hit: return the cached value *)
            {| tbl := tbl s; th := upd (th s) t (Idle todo); results := (t, k, v) :: results s |}
        | None => (* Load miss: compute *)
            {| tbl := tbl s; th := upd (th s) t (Computed m k (f k) todo); results := results s |}
        end
    | Computed Plain k v todo => (* Store *)
        {| tbl := upd (tbl s) k (Some v); th := upd (th s) t (Returning k v todo); results := results s |}
    | Computed Defer k v todo => (* return value fixed first, Store still to come *)
        {| tbl := tbl s; th := upd (th s) t (DeferStore k v todo); results := (t, k, v) :: results s |}
    | Computed LOS k v todo => (* LoadOrStore keeps an existing entry and returns it *)
        match tbl s k with
        | Some v' => {| tbl := tbl s; th := upd (th s) t (Returning k v' todo); results := results s |}
        | None => {| tbl := upd (tbl s) k (Some v); th := upd (th s) t (Returning k v todo); results := results s |}
        end
    | Returning k v todo =>
        {| tbl := tbl s; th := upd (th s) t (Idle todo); results := (t, k, v) :: results s |}
    | DeferStore k v todo => (* the deferred Store *)
        {| tbl := upd (tbl s) k (Some v); th := upd (th s) t (Idle todo); results := results s |}
    | Finished => s
    end.

  Definition run (s : sys) (sched : schedule) : sys := fold_left step sched s.

  Definition init (progs : tid -> list op) : sys :=
    {| tbl := fun _ => None; th := fun t => Idle (progs t); results := [] |}.

  Lemma run_app s a b : run s (a ++ b) = run (run s a) b.
  Proof. unfold run. apply fold_left_app. Qed.

  (* The transition table of [step], thread-local: in state [st], seeing table [tb], a thread moves to [st'] with
     effect [e].  Every property of a step below is one fact about these nine rows and one about [effect_on]. *)
  Inductive acts (tb : key -> option val) : tstate -> tstate -> effect -> Prop :=
  | acts_end : acts tb (Idle []) Finished Silent
  | acts_hit m k v todo : tb k = Some v -> acts tb (Idle ((m, k) :: todo)) (Idle todo) (Returns k v)
  | acts_miss m k todo : tb k = None -> acts tb (Idle ((m, k) :: todo)) (Computed m k (f k) todo) Silent
  | acts_store k v todo : acts tb (Computed Plain k v todo) (Returning k v todo) (Stores k v)
  | acts_defer k v todo : acts tb (Computed Defer k v todo) (DeferStore k v todo) (Returns k v)
  | acts_los_kept k v v' todo : tb k = Some v' -> acts tb (Computed LOS k v todo) (Returning k v' todo) Silent
  | acts_los_new k v todo : tb k = None -> acts tb (Computed LOS k v todo) (Returning k v todo) (Stores k v)
  | acts_return k v todo : acts tb (Returning k v todo) (Idle todo) (Returns k v)
  | acts_deferred k v todo : acts tb (DeferStore k v todo) (Idle todo) (Stores k v).

  Lemma step_acts s t :
    (th s t = Finished /\ step s t = s) \/
    (exists st' e, acts (tbl s) (th s t) st' e /\ step s t = effect_on s t st' e).
  Proof.
    unfold step. destruct (th s t) as [[|[m k] todo]|m k v todo|k v todo|k v todo|]; [..|now left]; right.
    - eauto using acts.
    - destruct (tbl s k) eqn:Ek; eauto 6 using acts.
    - destruct m; [| |destruct (tbl s k) eqn:Ek]; eauto 6 using acts.
    - eauto using acts.
    - eauto using acts.
  Qed.

  Definition local_ok (st : tstate) : Prop :=
    match st with
    | Computed _ k v _ | Returning k v _ | DeferStore k v _ => v = f k
    | _ => True
    end.

  Definition Inv (s : sys) : Prop :=
    (forall k v, tbl s k = Some v -> v = f k) /\
    (forall t, local_ok (th s t)) /\
    (forall t k v, In (t, k, v) (results s) -> v = f k).

  Definition effect_ok (e : effect) : Prop :=
    match e with Stores k v | Returns k v => v = f k | Silent => True end.

  Lemma acts_ok tb st st' e :
    (forall k v, tb k = Some v -> v = f k) -> local_ok st -> acts tb st st' e -> local_ok st' /\ effect_ok e.
  Proof. intros Htb Hst Ha. destruct Ha; cbn [local_ok effect_ok] in *; auto. Qed.

  Lemma effect_inv s t st' e : Inv s -> local_ok st' -> effect_ok e -> Inv (effect_on s t st' e).
  Proof.
    intros (Htbl & Hloc & Hres) Hst He. split; [|split].
    - destruct e as [|k v|k v]; cbn [effect_on tbl]; try exact Htbl.
      now apply upd_Some_forall.
    - now apply upd_forall.
    - destruct e as [|k v|k v]; cbn [effect_on results]; try exact Hres.
      intros t0 k0 v0 [[= <- <- <-]|Hin]; [exact He|eapply Hres; exact Hin].
  Qed.

  Theorem step_inv s t : Inv s -> Inv (step s t).
  Proof.
    intros Hinv. destruct (step_acts s t) as [(_ & ->)|(st' & e & Ha & ->)]; [exact Hinv|].
    pose proof Hinv as (Htbl & Hloc & _). destruct (acts_ok _ _ _ _ Htbl (Hloc t) Ha). now apply effect_inv.
  Qed.

  Lemma init_inv progs : Inv (init progs).
  Proof. repeat split; cbn; intros; try contradiction; try discriminate. Qed.

  Lemma run_inv s sched : Inv s -> Inv (run s sched).
  Proof. apply fold_left_preserves. exact step_inv. Qed.

  (* C19 for the caches: under EVERY schedule every lookup obtains f key - the value it obtains running alone *)
  Theorem memo_schedule_independent progs sched t k v :
    In (t, k, v) (results (run (init progs) sched)) -> v = f k.
  Proof.
    destruct (run_inv (init progs) sched (init_inv progs)) as (_ & _ & Hres). apply Hres.
  Qed.

  Theorem memo_table_correct progs sched k v :
    tbl (run (init progs) sched) k = Some v -> v = f k.
  Proof.
    destruct (run_inv (init progs) sched (init_inv progs)) as (Htbl & _ & _). apply Htbl.
  Qed.

  Lemma step_tbl_grows s t k v : Inv s -> tbl s k = Some v -> tbl (step s t) k = Some v.
  Proof.
    intros (Htbl & Hloc & _) Hk. destruct (step_acts s t) as [(_ & ->)|(st' & e & Ha & ->)]; [exact Hk|].
    destruct (acts_ok _ _ _ _ Htbl (Hloc t) Ha) as (_ & He).
    destruct e as [|k' v'|k' v']; cbn [effect_on tbl]; try exact Hk.
    destruct (Nat.eq_dec k k') as [->|Hne]; [|now rewrite upd_other].
    (* a Store over an existing entry writes what is there: both values are f k *)
    rewrite upd_same, (Htbl _ _ Hk). cbn [effect_ok] in He. now rewrite He.
  Qed.

  Theorem memo_table_grows progs sched1 sched2 k v :
    tbl (run (init progs) sched1) k = Some v -> tbl (run (init progs) (sched1 ++ sched2)) k = Some v.
  Proof.
    intros Hk. rewrite run_app.
    apply (fold_left_preserves (fun s => Inv s /\ tbl s k = Some v) step).
    - intros s t (Hs & Hsk). split; [now apply step_inv|now apply step_tbl_grows].
    - split; [apply run_inv, init_inv|exact Hk].
  Qed.

  Definition Req (progs : tid -> list op) (s : sys) : Prop :=
    (forall t, incl (cur_keys (th s t)) (keys (progs t))) /\
    (forall k v, tbl s k = Some v -> exists t, In k (keys (progs t))).

  Lemma acts_keys tb st st' e :
    acts tb st st' e ->
    incl (cur_keys st') (cur_keys st) /\ match e with Stores k _ => In k (cur_keys st) | _ => True end.
  Proof. destruct 1; cbn [cur_keys keys map snd]; auto with datatypes. Qed.

  Lemma step_req progs s t : Req progs s -> Req progs (step s t).
  Proof.
    intros (Hcur & Htbl). destruct (step_acts s t) as [(_ & ->)|(st' & e & Ha & ->)]; [now split|].
    destruct (acts_keys _ _ _ _ Ha) as (Hincl & He). split.
    - apply (upd_forall (fun t st => incl (cur_keys st) (keys (progs t)))); [|exact Hcur].
      eapply incl_tran; [exact Hincl|apply Hcur].
    - destruct e as [|k v|k v]; cbn [effect_on tbl]; try exact Htbl.
      apply upd_Some_forall; [|exact Htbl]. exists t. now apply (Hcur t).
  Qed.

  Lemma init_req progs : Req progs (init progs).
  Proof. split; [intros t; apply incl_refl|discriminate]. Qed.

  Theorem memo_table_keys_requested progs sched k v :
    tbl (run (init progs) sched) k = Some v -> exists t, In k (keys (progs t)).
  Proof. apply (fold_left_preserves (Req progs) step (step_req progs) sched _ (init_req progs)). Qed.

  Corollary memo_unrequested_key_misses progs sched k :
    (forall t, ~ In k (keys (progs t))) -> tbl (run (init progs) sched) k = None.
  Proof.
    intros Hno. destruct (tbl (run (init progs) sched) k) as [v|] eqn:E; [|reflexivity].
    apply memo_table_keys_requested in E. destruct E as (t & Ht). exfalso. exact (Hno t Ht).
  Qed.

  Definition done_keys (t : tid) (s : sys) : list key := rev (map fst (log_of t (results s))).

  Definition Ord (progs : tid -> list op) (s : sys) : Prop :=
    forall t, done_keys t s ++ pending (th s t) = keys (progs t).

  Lemma acts_pending tb st st' e :
    acts tb st st' e -> pending st = match e with Returns k _ => k :: pending st' | _ => pending st' end.
  Proof. now destruct 1. Qed.

  Lemma step_ord progs s t : Ord progs s -> Ord progs (step s t).
  Proof.
    intros Hord t0. destruct (step_acts s t) as [(_ & ->)|(st' & e & Ha & ->)]; [apply Hord|].
    specialize (Hord t0). unfold done_keys in *. cbn [effect_on th results].
    destruct (Nat.eq_dec t0 t) as [->|Hne].
    - rewrite upd_same. rewrite (acts_pending _ _ _ _ Ha) in Hord. destruct e as [|k v|k v]; try exact Hord.
      rewrite log_of_cons_same. cbn [map fst rev]. now rewrite <- app_assoc.
    - rewrite upd_other by assumption. destruct e as [|k v|k v]; try exact Hord.
      now rewrite log_of_cons_other by auto.
  Qed.

  Lemma run_ord progs sched : Ord progs (run (init progs) sched).
  Proof. apply (fold_left_preserves (Ord progs) step (step_ord progs)). intros t. reflexivity. Qed.

  Definition alone_log (p : list op) : list (key * val) := rev (map (fun k => (k, f k)) (keys p)).

  Lemma log_determined (l : list (key * val)) :
    (forall k v, In (k, v) l -> v = f k) -> l = map (fun k => (k, f k)) (map fst l).
  Proof.
    induction l as [|[k v] l IH]; intros H; cbn [map fst]; [reflexivity|].
    rewrite <- IH by (intros k' v' Hin; apply H; now right).
    rewrite <- (H k v) by now left. reflexivity.
  Qed.

  Lemma memo_log_pending progs sched t :
    rev (log_of t (results (run (init progs) sched)))
      ++ map (fun k => (k, f k)) (pending (th (run (init progs) sched) t))
    = rev (alone_log (progs t)).
  Proof.
    unfold alone_log. rewrite rev_involutive, <- (run_ord progs sched t), map_app. f_equal.
    unfold done_keys. rewrite map_rev. f_equal. apply log_determined.
    intros k v Hin. apply log_of_In in Hin. eapply memo_schedule_independent. exact Hin.
  Qed.

  Theorem memo_finished_log progs sched t :
    th (run (init progs) sched) t = Finished ->
    log_of t (results (run (init progs) sched)) = alone_log (progs t).
  Proof.
    intros Hfin. pose proof (memo_log_pending progs sched t) as H. rewrite Hfin, app_nil_r in H.
    apply (f_equal (@rev _)) in H. now rewrite !rev_involutive in H.
  Qed.

  Theorem memo_log_prefix progs sched t :
    exists rest, rev (log_of t (results (run (init progs) sched))) ++ map (fun k => (k, f k)) rest
                 = rev (alone_log (progs t)).
  Proof. eexists. apply memo_log_pending. Qed.

  (* running alone, a thread needs at most 3 actions per lookup (Load, Store, return) and one to finish *)
  Definition fuel_of (st : tstate) : nat :=
    match st with
    | Idle todo => 1 + 3 * length todo
    | Computed _ _ _ todo => 3 + 3 * length todo
    | Returning _ _ todo => 2 + 3 * length todo
    | DeferStore _ _ todo => 2 + 3 * length todo
    | Finished => 0
    end.

  Lemma acts_fuel tb st st' e : acts tb st st' e -> fuel_of st' < fuel_of st.
  Proof. destruct 1; cbn [fuel_of length]; lia. Qed.

  Lemma step_fuel s t n : fuel_of (th s t) <= S n -> fuel_of (th (step s t) t) <= n.
  Proof.
    intros Hn. destruct (step_acts s t) as [(Hfin & ->)|(st' & e & Ha & ->)]; [rewrite Hfin; apply Nat.le_0_l|].
    cbn [effect_on th]. rewrite upd_same. apply acts_fuel in Ha. lia.
  Qed.

  Lemma fuel_zero st : fuel_of st = 0 -> st = Finished.
  Proof. destruct st; cbn [fuel_of]; intros H; try lia; reflexivity. Qed.

  Lemma run_alone_finishes n : forall s t, fuel_of (th s t) <= n -> th (run s (repeat t n)) t = Finished.
  Proof.
    induction n as [|n IH]; intros s t Hn; [apply fuel_zero, Nat.le_0_r, Hn|].
    apply (IH (step s t) t), step_fuel, Hn.
  Qed.

  Definition alone_schedule (p : list op) (t : tid) : schedule := repeat t (1 + 3 * length p).

  Lemma memo_alone_finishes progs t :
    th (run (init progs) (alone_schedule (progs t) t)) t = Finished.
  Proof. apply run_alone_finishes, le_n. Qed.

  (* C19, literally: whatever the schedule and whatever the other threads do, a thread that completed its program
     has exactly the log it has when it is the only thread that ever runs *)
  Theorem memo_same_as_alone progs sched t :
    th (run (init progs) sched) t = Finished ->
    log_of t (results (run (init progs) sched))
    = log_of t (results (run (init progs) (alone_schedule (progs t) t))).
  Proof.
    intros Hfin. rewrite (memo_finished_log progs sched t Hfin).
    symmetry. apply memo_finished_log. apply memo_alone_finishes.
  Qed.
End Memo.

(* type_name.go:  Load(t) hit -> return;  defer Store(t, name);  if t is a pointer: str := TypeName(t.Elem()); name
   is built from str; else name is built from t alone.  The nested call happens between the outer Load and the outer
   (deferred) Store, so a thread holds a stack of open frames, each with its Store still to come. *)
Inductive nstate :=
| NIdle (todo : list key)                                         (* next: Load of the head, no caller *)
| NCall (k : key) (stack : list key) (todo : list key)            (* next: Load k, on behalf of the open frames *)
| NStore (k : key) (v : val) (stack : list key) (todo : list key) (* frame k has its return value; Store pending *)
| NFinished.

Record nsys := {
  ntbl : key -> option val;
  nth : tid -> nstate;
  nresults : list (tid * key * val)
}.

Section NestedMemo.
  Variable sub : key -> option key.         (* t.Elem() when t is a pointer *)
  Variable g : key -> option val -> val.    (* the name built from t and, for a pointer, from the element's name *)
  Variable f : key -> val.                  (* TypeName as a mathematical function *)
  Hypothesis f_rec : forall k, f k = g k (option_map f (sub k)).

  (* hand the value v of the finished frame k to its caller: the caller computes its own return value (locally);
     with no caller the lookup is complete and recorded *)
  Definition deliver (s : nsys) (t : tid) (tb : key -> option val) (k : key) (v : val)
             (stack todo : list key) : nsys :=
    match stack with
    | [] => {| ntbl := tb; nth := upd (nth s) t (NIdle todo); nresults := (t, k, v) :: nresults s |}
    | k0 :: st => {| ntbl := tb; nth := upd (nth s) t (NStore k0 (g k0 (Some v)) st todo); nresults := nresults s |}
    end.

  (* the Load that opens frame k *)
  Definition load (s : nsys) (t : tid) (k : key) (stack todo : list key) : nsys :=
    match ntbl s k with
    | Some v => deliver s t (ntbl s) k v stack todo
    | None =>
        match sub k with
        | Some k' => {| ntbl := ntbl s; nth := upd (nth s) t (NCall k' (k :: stack) todo); nresults := nresults s |}
        | None => {| ntbl := ntbl s; nth := upd (nth s) t (NStore k (g k None) stack todo); nresults := nresults s |}
        end
    end.

  Definition nstep (s : nsys) (t : tid) : nsys :=
    match nth s t with
    | NIdle [] => {| ntbl := ntbl s; nth := upd (nth s) t NFinished; nresults := nresults s |}
    | NIdle (k :: todo) => load s t k [] todo
    | NCall k stack todo => load s t k stack todo
    | NStore k v stack todo => deliver s t (upd (ntbl s) k (Some v)) k v stack todo   (* the deferred Store *)
    | NFinished => s
    end.

  Definition nrun (s : nsys) (sched : schedule) : nsys := fold_left nstep sched s.
  Definition ninit (progs : tid -> list key) : nsys :=
    {| ntbl := fun _ => None; nth := fun t => NIdle (progs t); nresults := [] |}.

  (* the open frames form a chain of element types *)
  Fixpoint chain (k : key) (stack : list key) : Prop :=
    match stack with
    | [] => True
    | k0 :: st => sub k0 = Some k /\ chain k0 st
    end.

  Definition nlocal_ok (st : nstate) : Prop :=
    match st with
    | NCall k stack _ => chain k stack
    | NStore k v stack _ => v = f k /\ chain k stack
    | _ => True
    end.

  Definition NInv (s : nsys) : Prop :=
    (forall k v, ntbl s k = Some v -> v = f k) /\
    (forall t, nlocal_ok (nth s t)) /\
    (forall t k v, In (t, k, v) (nresults s) -> v = f k).

  Lemma ninv_upd s t tb st rs :
    (forall k v, tb k = Some v -> v = f k) -> (forall t0, nlocal_ok (nth s t0)) -> nlocal_ok st ->
    (forall t0 k v, In (t0, k, v) rs -> v = f k) ->
    NInv {| ntbl := tb; nth := upd (nth s) t st; nresults := rs |}.
  Proof. intros Htb Hloc Hst Hrs. split; [exact Htb|split; [|exact Hrs]]. now apply upd_forall. Qed.

  Lemma deliver_inv s t tb k v stack todo :
    NInv s -> (forall k0 v0, tb k0 = Some v0 -> v0 = f k0) -> v = f k -> chain k stack ->
    NInv (deliver s t tb k v stack todo).
  Proof.
    intros (Htbl & Hloc & Hres) Htb Hv Hch. destruct stack as [|k0 st]; apply ninv_upd; trivial.
    - intros t0 k1 v1 [[= <- <- <-]|Hin]; [exact Hv|eapply Hres; exact Hin].
    - destruct Hch as (Hsub & Hch). split; [|exact Hch]. rewrite (f_rec k0), Hsub, Hv. reflexivity.
  Qed.

  Lemma load_inv s t k stack todo : NInv s -> chain k stack -> NInv (load s t k stack todo).
  Proof.
    intros Hinv Hch. pose proof Hinv as (Htbl & Hloc & Hres). unfold load. destruct (ntbl s k) as [v|] eqn:Ek.
    - apply deliver_inv; auto.
    - destruct (sub k) as [k'|] eqn:Es; apply ninv_upd; trivial.
      + now split.
      + split; [|exact Hch]. rewrite (f_rec k), Es. reflexivity.
  Qed.

  Theorem nstep_inv s t : NInv s -> NInv (nstep s t).
  Proof.
    intros Hinv. pose proof Hinv as (Htbl & Hloc & Hres). pose proof (Hloc t) as Hme. unfold nstep.
    destruct (nth s t) as [[|k todo]|k stack todo|k v stack todo|]; cbn [nlocal_ok] in Hme.
    - apply ninv_upd; trivial.
    - apply load_inv; [exact Hinv|exact I].
    - apply load_inv; assumption.
    - destruct Hme as (Hv & Hch). apply deliver_inv; trivial. now apply upd_Some_forall.
    - exact Hinv.
  Qed.

  Lemma ninit_inv progs : NInv (ninit progs).
  Proof. split; [|split]; cbn; intros; try discriminate; try contradiction; exact I. Qed.

  Lemma nrun_inv s sched : NInv s -> NInv (nrun s sched).
  Proof. apply fold_left_preserves. exact nstep_inv. Qed.

  Theorem nested_memo_schedule_independent progs sched t k v :
    In (t, k, v) (nresults (nrun (ninit progs) sched)) -> v = f k.
  Proof. destruct (nrun_inv (ninit progs) sched (ninit_inv progs)) as (_ & _ & Hres). apply Hres. Qed.

  Theorem nested_memo_table_correct progs sched k v :
    ntbl (nrun (ninit progs) sched) k = Some v -> v = f k.
  Proof. destruct (nrun_inv (ninit progs) sched (ninit_inv progs)) as (Htbl & _ & _). apply Htbl. Qed.
End NestedMemo.

Definition ty := nat.      (* reflect.Type *)
Definition name := nat.    (* registered type name *)

(* a read of the registry: marshal asks typeToName (QT), unmarshal asks nameToType (QN) *)
Inductive query := QT (t : ty) | QN (n : name).
Inductive rop := Reg (t : ty) | Look (q : query).

Inductive rstate :=
| RIdle (todo : list rop)
| RHalf (t : ty) (todo : list rop)     (* inside Register(t): nameToType done, typeToName still to do *)
| RFinished.

Record rsys := {
  n2t : name -> option ty;                       (* registeredNameToType *)
  t2n : ty -> option name;                       (* registeredTypeToName *)
  rth : tid -> rstate;
  robs : list (tid * query * option nat)         (* (thread, query, what Load returned), newest first *)
}.

(* sync.Map.LoadOrStore: the first value stored under a key stays *)
Definition los {A} (m : nat -> option A) (k : nat) (v : A) : nat -> option A :=
  match m k with Some _ => m | None => upd m k (Some v) end.

Lemma los_keep {A} (m : nat -> option A) k v k' x : m k' = Some x -> los m k v k' = Some x.
Proof.
  intros H. unfold los. destruct (m k) eqn:E; [exact H|].
  destruct (Nat.eq_dec k' k) as [->|Hne]; [congruence|]. now rewrite upd_other.
Qed.
Lemma los_inv {A} (m : nat -> option A) k v k' x :
  los m k v k' = Some x -> m k' = Some x \/ (k' = k /\ x = v /\ m k = None).
Proof.
  unfold los. destruct (m k) eqn:E; [now left|].
  destruct (Nat.eq_dec k' k) as [->|Hne].
  - rewrite upd_same. intros [= <-]. right. auto.
  - rewrite upd_other by assumption. now left.
Qed.
Lemma los_same {A} (m : nat -> option A) k v : los m k v k <> None.
Proof. unfold los. destruct (m k) eqn:E; [congruence|]. rewrite upd_same. discriminate. Qed.
Lemma los_keep_ne {A} (m : nat -> option A) k v k' : m k' <> None -> los m k v k' <> None.
Proof. destruct (m k') as [x|] eqn:E; [|congruence]. intros _. rewrite (los_keep m k v k' x E). discriminate. Qed.
Lemma los_other {A} (m : nat -> option A) k v k' : k' <> k -> los m k v k' = m k'.
Proof. intros H. unfold los. destruct (m k); [reflexivity|]. now apply upd_other. Qed.

Definition answer (s : rsys) (q : query) : option nat :=
  match q with QT t => t2n s t | QN n => n2t s n end.

(* the operations thread-state [st] has still to complete; a Register in its window is still pending *)
Definition rpending (st : rstate) : list rop :=
  match st with
  | RIdle todo => todo
  | RHalf t todo => Reg t :: todo
  | RFinished => []
  end.

Definition rlog_of (t : tid) (os : list (tid * query * option nat)) : list (query * option nat) :=
  map (fun o => (snd (fst o), snd o)) (filter (fun o => Nat.eqb (fst (fst o)) t) os).

Lemma rlog_of_cons_same t q a os : rlog_of t ((t, q, a) :: os) = (q, a) :: rlog_of t os.
Proof. unfold rlog_of. cbn [filter fst snd]. rewrite Nat.eqb_refl. reflexivity. Qed.
Lemma rlog_of_cons_other t t' q a os : t' <> t -> rlog_of t ((t', q, a) :: os) = rlog_of t os.
Proof. intros H. unfold rlog_of. cbn [filter fst snd]. destruct (Nat.eqb_spec t' t); [contradiction|reflexivity]. Qed.

Section Registry.
  (* TypeName.  Register computes it through the typeToName memo table; by memo_schedule_independent (Section Memo) that
     yields [nm t] under every schedule, so it is a function here.  Register panics on an unnamed type before
     touching either map; such calls are not modelled. *)
  Variable nm : ty -> name.

  Definition rstep (s : rsys) (t : tid) : rsys :=
    match rth s t with
    | RIdle [] => {| n2t := n2t s; t2n := t2n s; rth := upd (rth s) t RFinished; robs := robs s |}
    | RIdle (Reg x :: todo) => (* registeredNameToType.LoadOrStore(name, t) *)
        {| n2t := los (n2t s) (nm x) x; t2n := t2n s; rth := upd (rth s) t (RHalf x todo); robs := robs s |}
    | RIdle (Look q :: todo) => (* one atomic Load *)
        {| n2t := n2t s; t2n := t2n s; rth := upd (rth s) t (RIdle todo); robs := (t, q, answer s q) :: robs s |}
    | RHalf x todo => (* registeredTypeToName.LoadOrStore(t, name) *)
        {| n2t := n2t s; t2n := los (t2n s) x (nm x); rth := upd (rth s) t (RIdle todo); robs := robs s |}
    | RFinished => s
    end.

  Definition rrun (s : rsys) (sched : schedule) : rsys := fold_left rstep sched s.

  Definition rinit (progs : tid -> list rop) : rsys :=
    {| n2t := fun _ => None; t2n := fun _ => None; rth := fun t => RIdle (progs t); robs := [] |}.

  Lemma rrun_app s a b : rrun s (a ++ b) = rrun (rrun s a) b.
  Proof. unfold rrun. apply fold_left_app. Qed.

  Lemma rstep_rth_other s t w : w <> t -> rth (rstep s t) w = rth s w.
  Proof.
    intros Hne. unfold rstep. destruct (rth s t) as [[|[x|q] todo]|x todo|] eqn:Et; cbn [rth];
      try (now rewrite upd_other by assumption). reflexivity.
  Qed.
  Lemma rstep_obs s t : robs (rstep s t) = robs s \/ exists q, robs (rstep s t) = (t, q, answer s q) :: robs s.
  Proof.
    unfold rstep. destruct (rth s t) as [[|[x|q] todo]|x todo|] eqn:Et; cbn [robs]; try (now left).
    right. now exists q.
  Qed.
  Lemma rstep_look s t q todo :
    rth s t = RIdle (Look q :: todo) ->
    rth (rstep s t) t = RIdle todo /\ robs (rstep s t) = (t, q, answer s q) :: robs s.
  Proof. intros H. unfold rstep. rewrite H. cbn [rth robs]. now rewrite upd_same. Qed.
  Lemma rstep_end s t : rth s t = RIdle [] -> rth (rstep s t) t = RFinished /\ robs (rstep s t) = robs s.
  Proof. intros H. unfold rstep. rewrite H. cbn [rth robs]. now rewrite upd_same. Qed.
  Lemma rstep_fin s t : rth s t = RFinished -> rstep s t = s.
  Proof. intros H. unfold rstep. now rewrite H. Qed.
  Lemma rstep_rlog_other s t w : w <> t -> rlog_of w (robs (rstep s t)) = rlog_of w (robs s).
  Proof.
    intros Hne. destruct (rstep_obs s t) as [->|(q & ->)]; [reflexivity|].
    apply rlog_of_cons_other. auto.
  Qed.

  Lemma rstep_answer_keeps s t q x : answer s q = Some x -> answer (rstep s t) q = Some x.
  Proof.
    intros H. unfold rstep. destruct (rth s t) as [[|[y|q'] todo]|y todo|] eqn:Et; destruct q as [z|n];
      cbn [answer n2t t2n] in *; try exact H; now apply los_keep.
  Qed.

  Theorem registry_entries_never_change s sched q x : answer s q = Some x -> answer (rrun s sched) q = Some x.
  Proof. apply (fold_left_preserves (fun s => answer s q = Some x)). intros s' t. apply rstep_answer_keeps. Qed.

  Lemma rrun_later sched : forall s,
    exists later, robs (rrun s sched) = later ++ robs s /\
      forall r q a, In (r, q, a) later -> forall x, answer s q = Some x -> a = Some x.
  Proof.
    unfold rrun. induction sched as [|t sched IH]; intros s; cbn [fold_left].
    - exists []. split; [reflexivity|]. intros r q a [].
    - destruct (IH (rstep s t)) as (later & Heq & Hl).
      destruct (rstep_obs s t) as [Hsame|(q0 & Hnew)].
      + exists later. rewrite Heq, Hsame. split; [reflexivity|].
        intros r q a Hin x Hx. eapply Hl; [exact Hin|]. now apply rstep_answer_keeps.
      + exists (later ++ [(t, q0, answer s q0)]). rewrite Heq, Hnew, <- app_assoc. split; [reflexivity|].
        intros r q a Hin x Hx. apply in_app_or in Hin. destruct Hin as [Hin|[[= <- <- <-]|[]]].
        * eapply Hl; [exact Hin|]. now apply rstep_answer_keeps.
        * exact Hx.
  Qed.

  Definition Seen (s : rsys) : Prop := forall r q x, In (r, q, Some x) (robs s) -> answer s q = Some x.

  Lemma rstep_seen s t : Seen s -> Seen (rstep s t).
  Proof.
    intros Hs r q x Hin. destruct (rstep_obs s t) as [Hsame|(q0 & Hnew)].
    - rewrite Hsame in Hin. apply rstep_answer_keeps. eapply Hs. exact Hin.
    - rewrite Hnew in Hin. apply rstep_answer_keeps. destruct Hin as [[= <- <- Ha]|Hin]; [exact Ha|eapply Hs; exact Hin].
  Qed.

  Lemma rrun_seen progs sched : Seen (rrun (rinit progs) sched).
  Proof. apply (fold_left_preserves Seen rstep rstep_seen). intros r q x []. Qed.

  Theorem registry_monotone progs sched1 sched2 r q x :
    In (r, q, Some x) (robs (rrun (rinit progs) sched1)) ->
    exists later,
      robs (rrun (rinit progs) (sched1 ++ sched2)) = later ++ robs (rrun (rinit progs) sched1) /\
      forall r' a, In (r', q, a) later -> a = Some x.
  Proof.
    intros Hin. rewrite rrun_app. apply rrun_seen in Hin.
    destruct (rrun_later sched2 (rrun (rinit progs) sched1)) as (later & Heq & Hl).
    exists later. split; [exact Heq|]. intros r' a Ha. eapply Hl; [exact Ha|exact Hin].
  Qed.

  Definition RInv (s : rsys) : Prop :=
    (forall n x, n2t s n = Some x -> nm x = n) /\
    (forall x n, t2n s x = Some n -> n = nm x /\ n2t s n <> None) /\
    (forall w x todo, rth s w = RHalf x todo -> n2t s (nm x) <> None).

  Theorem rstep_rinv s t : RInv s -> RInv (rstep s t).
  Proof.
    intros (H1 & H2 & H3).
    (* a step that leaves n2t alone and its own thread outside Register puts nobody new inside one *)
    assert (Hout : forall st, (forall x todo, st <> RHalf x todo) ->
                   forall w x todo, upd (rth s) t st w = RHalf x todo -> n2t s (nm x) <> None).
    { intros st Hst.
      apply (upd_forall (fun _ st' => forall x todo, st' = RHalf x todo -> n2t s (nm x) <> None)); [|exact H3].
      intros x todo E. now apply Hst in E. }
    unfold rstep. destruct (rth s t) as [[|[y|q] todo]|y todo|] eqn:Et.
    - split; [exact H1|split; [exact H2|apply Hout; discriminate]].
    - (* first LoadOrStore of Register(y): n2t may gain (nm y, y); t is now inside Register(y) *)
      split; [|split]; cbn [n2t t2n rth].
      + intros n x Hn. apply los_inv in Hn. destruct Hn as [Hn|(-> & -> & _)]; [now apply H1|reflexivity].
      + intros x n Hx. destruct (H2 x n Hx) as (-> & Hn). split; [reflexivity|now apply los_keep_ne].
      + apply (upd_forall (fun _ st' => forall x todo', st' = RHalf x todo' -> los (n2t s) (nm y) y (nm x) <> None)).
        * intros x todo' [= <- _]. apply los_same.
        * intros w x todo' Hw. apply los_keep_ne. eapply H3. exact Hw.
    - split; [exact H1|split; [exact H2|apply Hout; discriminate]].
    - (* second LoadOrStore: t2n may gain (y, nm y), and nm y is in n2t since t was inside Register(y) *)
      split; [exact H1|split; [|apply Hout; discriminate]]. cbn [n2t t2n].
      intros x n Hx. apply los_inv in Hx. destruct Hx as [Hx|(-> & -> & _)]; [now apply H2|].
      split; [reflexivity|]. eapply H3. exact Et.
    - split; [|split]; assumption.
  Qed.

  Lemma rinit_rinv progs : RInv (rinit progs).
  Proof. split; [|split]; cbn; intros; discriminate. Qed.

  Lemma rinv_pair s x n :
    RInv s -> t2n s x = Some n -> n = nm x /\ exists x', n2t s n = Some x' /\ nm x' = n.
  Proof.
    intros (H1 & H2 & _) Hx. destruct (H2 x n Hx) as (-> & Hn). split; [reflexivity|].
    destruct (n2t s (nm x)) as [x'|] eqn:En; [|congruence]. exists x'. split; [reflexivity|now apply H1].
  Qed.

  Lemma rrun_rinv progs sched : RInv (rrun (rinit progs) sched).
  Proof. apply (fold_left_preserves RInv rstep rstep_rinv sched _ (rinit_rinv progs)). Qed.

  Definition Done (progs : tid -> list rop) (s : rsys) : Prop :=
    forall w x, In (Reg x) (progs w) -> In (Reg x) (rpending (rth s w)) \/ t2n s x <> None.

  Lemma rstep_done progs s t : Done progs s -> Done progs (rstep s t).
  Proof.
    intros Hd w x Hin. destruct (Hd w x Hin) as [Hp|Hdone].
    - destruct (Nat.eq_dec w t) as [->|Hne]; [|left; now rewrite rstep_rth_other].
      (* t's own pending operations: a Look leaves; a Register leaves at its second LoadOrStore, which fills t2n *)
      unfold rstep. destruct (rth s t) as [[|[y|q] todo]|y todo|]; cbn [rth t2n]; rewrite ?upd_same;
        cbn [rpending In] in *.
      + destruct Hp.
      + now left.
      + destruct Hp as [[=]|Hp]. now left.
      + destruct Hp as [[= ->]|Hp]; [right; apply los_same|now left].
      + destruct Hp.
    - right. destruct (t2n s x) as [n|] eqn:E; [|congruence].
      pose proof (rstep_answer_keeps s t (QT x) n E) as E'. cbn [answer] in E'. congruence.
  Qed.

  Lemma rrun_done progs sched : Done progs (rrun (rinit progs) sched).
  Proof. apply (fold_left_preserves (Done progs) rstep (rstep_done progs)). intros w x Hin. now left. Qed.

  Theorem registry_consistent_pairs_partial progs sched w x :
    In (Reg x) (progs w) -> rth (rrun (rinit progs) sched) w = RFinished ->
    t2n (rrun (rinit progs) sched) x = Some (nm x) /\
    exists x', n2t (rrun (rinit progs) sched) (nm x) = Some x' /\ nm x' = nm x.
  Proof.
    intros Hin Hfin.
    destruct (rrun_done progs sched w x Hin) as [Hp|Hdone]; [rewrite Hfin in Hp; destruct Hp|].
    destruct (t2n (rrun (rinit progs) sched) x) as [n|] eqn:Ex; [|congruence].
    destruct (rinv_pair _ x n (rrun_rinv progs sched) Ex) as (-> & Hn). now split.
  Qed.

  Theorem registry_consistent_pairs progs sched1 sched2 w x :
    (forall x', nm x' = nm x -> x' = x) ->
    In (Reg x) (progs w) -> rth (rrun (rinit progs) sched1) w = RFinished ->
    exists later,
      robs (rrun (rinit progs) (sched1 ++ sched2)) = later ++ robs (rrun (rinit progs) sched1) /\
      (forall r a, In (r, QT x, a) later -> a = Some (nm x)) /\
      (forall r a, In (r, QN (nm x), a) later -> a = Some x).
  Proof.
    intros Hinj Hin Hfin. rewrite rrun_app.
    destruct (registry_consistent_pairs_partial progs sched1 w x Hin Hfin) as (Ht & x' & Hn & Hx').
    apply Hinj in Hx'. subst x'.
    destruct (rrun_later sched2 (rrun (rinit progs) sched1)) as (later & Heq & Hl).
    exists later. split; [exact Heq|]. split; intros r a Ha; (eapply Hl; [exact Ha|]); cbn [answer]; assumption.
  Qed.

  Theorem registry_window_one_sided progs sched1 sched2 r x n :
    In (r, QT x, Some n) (robs (rrun (rinit progs) sched1)) ->
    n = nm x /\
    exists later,
      robs (rrun (rinit progs) (sched1 ++ sched2)) = later ++ robs (rrun (rinit progs) sched1) /\
      forall r' a, In (r', QN n, a) later -> exists x', a = Some x' /\ nm x' = n.
  Proof.
    intros Hin. rewrite rrun_app.
    apply rrun_seen in Hin. destruct (rinv_pair _ x n (rrun_rinv progs sched1) Hin) as (-> & x' & En & Hx').
    split; [reflexivity|].
    destruct (rrun_later sched2 (rrun (rinit progs) sched1)) as (later & Heq & Hl).
    exists later. split; [exact Heq|]. intros r' a Ha. exists x'. split; [|exact Hx'].
    eapply Hl; [exact Ha|exact En].
  Qed.

  (* Register(x) writes the keys QN (nm x) and QT x *)
  Definition touches (x : ty) (q : query) : Prop :=
    match q with QT z => z = x | QN n => n = nm x end.

  Definition answered (s : rsys) (q : query) : Prop := answer s q <> None.
  Definition untouched (s : rsys) (q : query) : Prop :=
    forall w x, In (Reg x) (rpending (rth s w)) -> ~ touches x q.
  Definition stable (s : rsys) (q : query) : Prop := answered s q \/ untouched s q.

  Lemma rstep_pending_incl s t w : incl (rpending (rth (rstep s t) w)) (rpending (rth s w)).
  Proof.
    destruct (Nat.eq_dec w t) as [->|Hne]; [|rewrite rstep_rth_other by assumption; apply incl_refl].
    unfold rstep. destruct (rth s t) as [[|[y|q] todo]|y todo|] eqn:Et; cbn [rth]; rewrite ?upd_same, ?Et;
      cbn [rpending]; auto with datatypes.
  Qed.

  Lemma untouched_answer_same s t q : untouched s q -> answer (rstep s t) q = answer s q.
  Proof.
    intros Hu. unfold rstep. destruct (rth s t) as [[|[y|q'] todo]|y todo|] eqn:Et; cbn [answer n2t t2n];
      try reflexivity.
    - assert (Hy : ~ touches y q) by (apply (Hu t); rewrite Et; now left).
      destruct q as [z|n]; cbn [answer n2t t2n touches] in *; [reflexivity|]. now apply los_other.
    - assert (Hy : ~ touches y q) by (apply (Hu t); rewrite Et; now left).
      destruct q as [z|n]; cbn [answer n2t t2n touches] in *; [|reflexivity]. now apply los_other.
  Qed.

  Lemma stable_step s t q : stable s q -> stable (rstep s t) q /\ answer (rstep s t) q = answer s q.
  Proof.
    intros [Ha|Hu].
    - unfold answered in Ha. destruct (answer s q) as [x|] eqn:E; [|congruence].
      pose proof (rstep_answer_keeps s t q x E) as E'. split; [|exact E'].
      left. unfold answered. rewrite E'. discriminate.
    - split; [|now apply untouched_answer_same].
      right. intros w x Hin. apply (Hu w). now apply (rstep_pending_incl s t w).
  Qed.

  Lemma completed_register_answered s x n :
    RInv s -> t2n s x = Some n -> answered s (QT x) /\ answered s (QN (nm x)).
  Proof.
    intros (_ & H2 & _) Hx. destruct (H2 x n Hx) as (-> & Hn).
    split; unfold answered; cbn [answer]; [congruence|exact Hn].
  Qed.

  Section Reader.
    (* the reader r is about to start, in state s0, a pipeline that makes the registry reads qs *)
    Variables (s0 : rsys) (r : tid) (qs : list query).
    Hypothesis Hstart : rth s0 r = RIdle (map Look qs).
    Hypothesis Hstable : forall q, In q qs -> stable s0 q.

    Definition told (q : query) : query * option nat := (q, answer s0 q).
    (* what r's log is after running alone from s0, newest first *)
    Definition canon_log : list (query * option nat) := rev (map told qs) ++ rlog_of r (robs s0).

    Definition reader_at (st : rstate) (rest : list query) : Prop :=
      st = RIdle (map Look rest) \/ (st = RFinished /\ rest = []).

    Definition RdInv (s : rsys) : Prop :=
      exists rest, reader_at (rth s r) rest /\
        (forall q, In q rest -> stable s q /\ answer s q = answer s0 q) /\
        rev (map told rest) ++ rlog_of r (robs s) = canon_log.

    Lemma rdinv_start : RdInv s0.
    Proof.
      exists qs. split; [now left|]. split; [|reflexivity]. intros q Hq. split; [now apply Hstable|reflexivity].
    Qed.

    Lemma rdinv_step s w : RdInv s -> RdInv (rstep s w).
    Proof.
      intros (rest & Hat & Hst & Hlog).
      assert (Hst' : forall q, In q rest -> stable (rstep s w) q /\ answer (rstep s w) q = answer s0 q).
      { intros q Hq. destruct (Hst q Hq) as (Hs & <-). now apply stable_step. }
      destruct (Nat.eq_dec w r) as [->|Hne].
      - destruct Hat as [Hidle|(Hfin & ->)].
        + destruct rest as [|q rest']; cbn [map] in Hidle.
          * destruct (rstep_end s r Hidle) as (Hth & Hobs).
            exists []. split; [right; now split|]. split; [intros q []|]. now rewrite Hobs.
          * destruct (rstep_look s r q _ Hidle) as (Hth & Hobs).
            exists rest'. split; [now left|]. split; [intros q' Hq'; apply Hst'; now right|].
            rewrite Hobs, rlog_of_cons_same. destruct (Hst q (or_introl eq_refl)) as (_ & Ha). rewrite Ha.
            rewrite <- Hlog. cbn [map rev]. rewrite <- app_assoc. reflexivity.
        + rewrite (rstep_fin s r Hfin). exists []. split; [right; now split|]. split; [intros q []|exact Hlog].
      - exists rest. split; [now rewrite rstep_rth_other by auto|].
        split; [exact Hst'|]. now rewrite rstep_rlog_other by auto.
    Qed.

    Lemma rdinv_run sched : RdInv (rrun s0 sched).
    Proof. apply (fold_left_preserves RdInv rstep rdinv_step sched s0 rdinv_start). Qed.

    Theorem reader_log_canonical sched :
      rth (rrun s0 sched) r = RFinished -> rlog_of r (robs (rrun s0 sched)) = canon_log.
    Proof.
      intros Hfin. destruct (rdinv_run sched) as (rest & Hat & _ & Hlog).
      destruct Hat as [Hidle|(_ & ->)]; [rewrite Hfin in Hidle; discriminate|]. exact Hlog.
    Qed.

    Theorem reader_log_prefix sched :
      exists rest, rev (map told rest) ++ rlog_of r (robs (rrun s0 sched)) = canon_log.
    Proof. destruct (rdinv_run sched) as (rest & _ & _ & Hlog). now exists rest. Qed.

    Definition ralone_schedule : schedule := repeat r (1 + length qs).

    Lemma reader_alone_finishes : rth (rrun s0 ralone_schedule) r = RFinished.
    Proof.
      unfold ralone_schedule. clear Hstable. revert s0 Hstart.
      induction qs as [|q qs' IH]; intros s Hs; cbn [map length repeat Nat.add] in *; unfold rrun; cbn [fold_left].
      - apply (rstep_end s r Hs).
      - destruct (rstep_look s r q _ Hs) as (Hth & _). exact (IH (rstep s r) Hth).
    Qed.

    (* C19 for the registry: a pipeline whose every registry read is stable when it starts (its types were
       registered before; whatever else it asks about is not being registered by anybody) obtains, under every
       schedule of the other threads - whatever they register -, exactly what it obtains running alone *)
    Theorem registered_before_start_independent sched :
      rth (rrun s0 sched) r = RFinished ->
      rlog_of r (robs (rrun s0 sched)) = rlog_of r (robs (rrun s0 ralone_schedule)).
    Proof.
      intros Hfin. rewrite (reader_log_canonical sched Hfin).
      symmetry. apply reader_log_canonical. apply reader_alone_finishes.
    Qed.
  End Reader.
End Registry.

Definition ex_f (k : key) : val := k * k + 1.
Definition ex_progs (t : tid) : list op :=
  match t with
  | 0 => [(Defer, 3); (Plain, 4)]
  | 1 => [(Plain, 3); (LOS, 4)]
  | 2 => [(LOS, 3); (Defer, 4)]
  | _ => []
  end.

Example ex_all_miss :
  let s := run ex_f (init ex_progs) [0; 1; 2] in
  (th s 0, th s 1, th s 2, tbl s 3, results s)
  = (Computed Defer 3 10 [(Plain, 4)], Computed Plain 3 10 [(LOS, 4)], Computed LOS 3 10 [(Defer, 4)], None, []).
Proof. vm_compute. reflexivity. Qed.

(* thread 0 returns before storing; thread 1 stores; thread 0's deferred Store is still to come: two Stores *)
Example ex_both_store :
  let s := run ex_f (init ex_progs) [0; 1; 2; 0; 1] in
  (th s 0, th s 1, tbl s 3, results s)
  = (DeferStore 3 10 [(Plain, 4)], Returning 3 10 [(LOS, 4)], Some 10, [(0, 3, 10)]) /\
  let s' := step ex_f s 0 in (th s' 0, tbl s' 3) = (Idle [(Plain, 4)], Some 10).
Proof. vm_compute. split; reflexivity. Qed.

Definition ex_sched : schedule := [0; 1; 2; 0; 1; 0; 2; 1; 2;  2; 1; 0; 2; 1; 0; 2; 1; 0;  0; 1; 2].

Example ex_full_run :
  let s := run ex_f (init ex_progs) ex_sched in
  (th s 0, th s 1, th s 2) = (Finished, Finished, Finished) /\
  (tbl s 3, tbl s 4, tbl s 5) = (Some 10, Some 17, None) /\
  results s = [(0, 4, 17); (1, 4, 17); (2, 4, 17); (2, 3, 10); (1, 3, 10); (0, 3, 10)].
Proof. vm_compute. repeat split; reflexivity. Qed.

(* the hypotheses of memo_same_as_alone are satisfiable, and its conclusion is what the computation shows *)
Example ex_same_as_alone :
  th (run ex_f (init ex_progs) ex_sched) 1 = Finished /\
  log_of 1 (results (run ex_f (init ex_progs) ex_sched)) = [(4, 17); (3, 10)] /\
  log_of 1 (results (run ex_f (init ex_progs) (alone_schedule (ex_progs 1) 1))) = [(4, 17); (3, 10)].
Proof. vm_compute. repeat split; reflexivity. Qed.

Example ex_memo_theorem_instance :
  forall t k v, In (t, k, v) (results (run ex_f (init ex_progs) ex_sched)) -> v = ex_f k.
Proof. exact (memo_schedule_independent ex_f ex_progs ex_sched). Qed.

(* nested lookups: key k+1 is "pointer to k"; both threads open three frames before anybody stores *)
Definition nx_sub (k : key) : option key := match k with 0 => None | S k' => Some k' end.
Definition nx_g (k : key) (o : option val) : val := match o with None => 7 | Some v => v + 2 end.
Definition nx_f (k : key) : val := 7 + 2 * k.
Lemma nx_f_rec : forall k, nx_f k = nx_g k (option_map nx_f (nx_sub k)).
Proof. intros [|k]; unfold nx_f; cbn [nx_sub option_map nx_g]; lia. Qed.
Definition nx_progs (t : tid) : list key := match t with 0 => [2] | 1 => [2; 1] | _ => [] end.

Example ex_nested_all_miss :
  let s := nrun nx_sub nx_g (ninit nx_progs) [0; 1; 0; 1; 0; 1] in
  (nth s 0, nth s 1, ntbl s 0, nresults s) = (NStore 0 7 [1; 2] [], NStore 0 7 [1; 2] [1], None, []).
Proof. vm_compute. reflexivity. Qed.

Example ex_nested_full_run :
  let s := nrun nx_sub nx_g (ninit nx_progs) [0; 1; 0; 1; 0; 1; 0; 1; 0; 1; 0; 1; 0; 1; 1; 1; 1] in
  (nth s 0, nth s 1) = (NFinished, NFinished) /\ (ntbl s 0, ntbl s 1, ntbl s 2) = (Some 7, Some 9, Some 11) /\
  nresults s = [(1, 1, 9); (1, 2, 11); (0, 2, 11)] /\
  (forall t k v, In (t, k, v) (nresults s) -> v = nx_f k).
Proof.
  split; [vm_compute; reflexivity|]. split; [vm_compute; reflexivity|]. split; [vm_compute; reflexivity|].
  exact (nested_memo_schedule_independent nx_sub nx_g nx_f nx_f_rec nx_progs _).
Qed.

Definition ex_nm (x : ty) : name := 100 + x.

(* the window between the two LoadOrStores of Register(5): a reader resolves the name 105 to the type 5 and
   then still finds no name for the type 5.  "Register is atomic for readers" is refuted. *)
Definition win_progs (t : tid) : list rop :=
  match t with
  | 0 => [Reg 5]
  | 1 => [Look (QN 105); Look (QT 5)]
  | _ => []
  end.

Theorem registry_window_refuted :
  exists progs sched r x,
    rth (rrun ex_nm (rinit progs) sched) 0 = RHalf x [] /\
    robs (rrun ex_nm (rinit progs) sched) = [(r, QT x, None); (r, QN (ex_nm x), Some x)].
Proof. exists win_progs, [0; 1; 1], 1, 5. vm_compute. split; reflexivity. Qed.

(* after the second LoadOrStore both directions are there (instance of registry_consistent_pairs) *)
Example registry_window_closes :
  robs (rrun ex_nm (rinit win_progs) [0; 0; 0; 1; 1]) = [(1, QT 5, Some 105); (1, QN 105, Some 5)] /\
  rth (rrun ex_nm (rinit win_progs) [0; 0; 0]) 0 = RFinished /\ In (Reg 5) (win_progs 0) /\
  (forall x', ex_nm x' = ex_nm 5 -> x' = 5).
Proof. split; [|split; [|split]]; try (vm_compute; reflexivity); [now left|]. unfold ex_nm. intros x' H. lia. Qed.

(* registry_consistent_pairs needs collision-free names: with two types of one name (Go: two function-local
   types T of one package) the FIRST registration owns the name, a completed Register(2) is not seen under its
   name ... *)
Definition col_nm (x : ty) : name := 7.
Definition col_progs (t : tid) : list rop :=
  match t with
  | 0 => [Reg 1]
  | 1 => [Reg 2]
  | 2 => [Look (QN 7)]
  | _ => []
  end.

Theorem registry_consistent_pairs_refuted :
  exists nm progs sched1 sched2 w x r a,
    In (Reg x) (progs w) /\ rth (rrun nm (rinit progs) sched1) w = RFinished /\
    robs (rrun nm (rinit progs) (sched1 ++ sched2)) = [(r, QN (nm x), a)] ++ robs (rrun nm (rinit progs) sched1) /\
    a <> Some x.
Proof.
  exists col_nm, col_progs, [0; 0; 0; 1; 1; 1], [2], 1, 2, 2, (Some 1).
  split; [now left|]. split; [vm_compute; reflexivity|]. split; [vm_compute; reflexivity|]. discriminate.
Qed.

(* ... and which type owns the name depends on the schedule of the two registering threads *)
Example registry_name_collision_schedule_dependent :
  robs (rrun col_nm (rinit col_progs) [0; 0; 0; 1; 1; 1; 2]) = [(2, QN 7, Some 1)] /\
  robs (rrun col_nm (rinit col_progs) [1; 1; 1; 0; 0; 0; 2]) = [(2, QN 7, Some 2)].
Proof. vm_compute. split; reflexivity. Qed.

(* registered_before_start_independent is not vacuous and its hypothesis Hstable is needed.  A reader that asks
   about a type another thread is registering at the same time (dependent data) gets schedule-dependent answers: *)
Definition dep_progs (t : tid) : list rop :=
  match t with
  | 0 => [Reg 5]
  | 1 => [Look (QT 5)]
  | _ => []
  end.

Example registry_unstable_reader_schedule_dependent :
  rlog_of 1 (robs (rrun ex_nm (rinit dep_progs) [1; 1; 0; 0; 0])) = [(QT 5, None)] /\
  rlog_of 1 (robs (rrun ex_nm (rinit dep_progs) [0; 0; 0; 1; 1])) = [(QT 5, Some 105)] /\
  ~ stable ex_nm (rinit dep_progs) (QT 5).
Proof.
  split; [vm_compute; reflexivity|]. split; [vm_compute; reflexivity|].
  intros [Ha|Hu]; [apply Ha; reflexivity|]. apply (Hu 0 5); [now left|reflexivity].
Qed.

(* type 5 registered before the reader (thread 1) starts; threads 2 and 3 register the other types 6, 7 and - again -
   5 while it runs; the reader also asks about the unregistered type 9 and the unknown name 42 *)
Definition ind_progs (t : tid) : list rop :=
  match t with
  | 0 => [Reg 5]
  | 1 => map Look [QT 5; QN 105; QT 9; QN 42]
  | 2 => [Reg 6; Reg 7]
  | 3 => [Reg 5]
  | _ => []
  end.
Definition ind_s0 : rsys := rrun ex_nm (rinit ind_progs) [0; 0; 0; 2].   (* thread 2 is inside Register(6) *)
Definition ind_qs : list query := [QT 5; QN 105; QT 9; QN 42].
Definition ind_sched : schedule := [2; 1; 3; 2; 1; 2; 1; 3; 1; 2; 1; 3; 3].

Lemma ind_stable : forall q, In q ind_qs -> stable ex_nm ind_s0 q.
Proof.
  (* the registrations pending in ind_s0 are of the types 6, 7 (thread 2) and 5 (thread 3) *)
  assert (Hpend : forall w x, In (Reg x) (rpending (rth ind_s0 w)) -> x = 6 \/ x = 7 \/ x = 5).
  { intros [|[|[|[|w]]]] x Hin; vm_compute in Hin; intuition congruence. }
  intros q [<-|[<-|[<-|[<-|[]]]]].
  - left. vm_compute. discriminate.
  - left. vm_compute. discriminate.
  - right. intros w x Hin. apply Hpend in Hin. cbn [touches]. lia.
  - right. intros w x Hin. apply Hpend in Hin. cbn [touches]. unfold ex_nm. lia.
Qed.

Example registered_before_start_independent_ex :
  rth ind_s0 1 = RIdle (map Look ind_qs) /\
  rth ind_s0 2 = RHalf 6 [Reg 7] /\
  rth (rrun ex_nm ind_s0 ind_sched) 1 = RFinished /\
  rlog_of 1 (robs (rrun ex_nm ind_s0 ind_sched)) = [(QN 42, None); (QT 9, None); (QN 105, Some 5); (QT 5, Some 105)] /\
  rlog_of 1 (robs (rrun ex_nm ind_s0 ind_sched)) = rlog_of 1 (robs (rrun ex_nm ind_s0 (ralone_schedule 1 ind_qs))).
Proof.
  split; [vm_compute; reflexivity|]. split; [vm_compute; reflexivity|]. split; [vm_compute; reflexivity|].
  split; [vm_compute; reflexivity|].
  apply (registered_before_start_independent ex_nm ind_s0 1 ind_qs); [reflexivity|exact ind_stable|].
  vm_compute. reflexivity.
Qed.

Definition MemoSchedules_main_theorems :=
  (step_inv, init_inv, memo_schedule_independent, memo_table_correct, step_tbl_grows, memo_table_grows,
   memo_table_keys_requested, memo_unrequested_key_misses, memo_finished_log, memo_log_prefix,
   memo_alone_finishes, memo_same_as_alone,
   nstep_inv, nested_memo_schedule_independent, nested_memo_table_correct,
   registry_entries_never_change, registry_monotone, rstep_rinv, rinit_rinv,
   registry_consistent_pairs_partial, registry_consistent_pairs, registry_consistent_pairs_refuted,
   registry_window_one_sided, registry_window_refuted, stable_step, completed_register_answered,
   reader_log_canonical, reader_log_prefix, reader_alone_finishes, registered_before_start_independent,
   (ex_all_miss, ex_both_store, ex_full_run, ex_same_as_alone, ex_memo_theorem_instance,
    ex_nested_all_miss, ex_nested_full_run,
    registry_window_closes, registry_name_collision_schedule_dependent,
    registry_unstable_reader_schedule_dependent, registered_before_start_independent_ex)).
Print Assumptions MemoSchedules_main_theorems.
