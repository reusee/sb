(* Abstract/PoolSchedules.v — pr3.Pool as used by sb (pool.go, hash.go, tree_hash.go, decode.go): Get = CAS(refs[i],0,1)
   on a scheduler-chosen slot, up to 16 tries, then a private fallback element; use = write then read the scratch
   buffer; Put = refs[i] := 0.  An interleaving transition system over arbitrary schedules.  Theorems: the 5-part
   exclusivity invariant is preserved by every step; every recorded result is the one the thread would obtain alone. *)
From Coq Require Import List Arith.
Import ListNotations.

Definition tid := nat.
Definition data := nat.

Inductive where_ := Slot (i : nat) | Priv.
Inductive tstate :=
| Idle (tries : nat) (todo : list data)          (* next op's payload is the head of todo *)
| Hold (w : where_) (d : data) (todo : list data)
| Written (w : where_) (d : data) (todo : list data)
| ReadDone (w : where_) (todo : list data)
| Finished.

Record sys := {
  refs : nat -> nat;            (* pool slots: 0 free / 1 taken *)
  buf : nat -> data;            (* shared scratch buffers, one per slot *)
  priv : tid -> data;           (* per-thread fallback element *)
  th : tid -> tstate;
  results : list (tid * data * data)   (* (thread, expected, obtained) *)
}.

Definition upd {A} (f : nat -> A) (k : nat) (v : A) : nat -> A := fun x => if Nat.eqb x k then v else f x.

(* one atomic step of thread t; [choice] is the slot index fastrand picked *)
Definition step (s : sys) (t : tid) (choice : nat) : sys :=
  match th s t with
  | Idle tries [] => {| refs := refs s; buf := buf s; priv := priv s; th := upd (th s) t Finished; results := results s |}
  | Idle tries (d :: todo) =>
      if Nat.leb 16 tries then
        {| refs := refs s; buf := buf s; priv := priv s; th := upd (th s) t (Hold Priv d todo); results := results s |}
      else if Nat.eqb (refs s choice) 0 then
        {| refs := upd (refs s) choice 1; buf := buf s; priv := priv s; th := upd (th s) t (Hold (Slot choice) d todo); results := results s |}
      else
        {| refs := refs s; buf := buf s; priv := priv s; th := upd (th s) t (Idle (S tries) (d :: todo)); results := results s |}
  | Hold (Slot i) d todo =>
      {| refs := refs s; buf := upd (buf s) i d; priv := priv s; th := upd (th s) t (Written (Slot i) d todo); results := results s |}
  | Hold Priv d todo =>
      {| refs := refs s; buf := buf s; priv := upd (priv s) t d; th := upd (th s) t (Written Priv d todo); results := results s |}
  | Written (Slot i) d todo =>
      {| refs := refs s; buf := buf s; priv := priv s; th := upd (th s) t (ReadDone (Slot i) todo); results := (t, d, buf s i) :: results s |}
  | Written Priv d todo =>
      {| refs := refs s; buf := buf s; priv := priv s; th := upd (th s) t (ReadDone Priv todo); results := (t, d, priv s t) :: results s |}
  | ReadDone (Slot i) todo =>
      {| refs := upd (refs s) i 0; buf := buf s; priv := priv s; th := upd (th s) t (Idle 0 todo); results := results s |}
  | ReadDone Priv todo =>
      {| refs := refs s; buf := buf s; priv := priv s; th := upd (th s) t (Idle 0 todo); results := results s |}
  | Finished => s
  end.

Definition run (s : sys) (sched : list (tid * nat)) : sys :=
  fold_left (fun s e => step s (fst e) (snd e)) sched s.

Definition holds (st : tstate) (i : nat) : Prop :=
  match st with
  | Hold (Slot j) _ _ | Written (Slot j) _ _ | ReadDone (Slot j) _ => j = i
  | _ => False
  end.

Definition Inv (s : sys) : Prop :=
  (forall t1 t2 i, holds (th s t1) i -> holds (th s t2) i -> t1 = t2) /\
  (forall t i, holds (th s t) i -> refs s i = 1) /\
  (forall t i d todo, th s t = Written (Slot i) d todo -> buf s i = d) /\
  (forall t d todo, th s t = Written Priv d todo -> priv s t = d) /\
  (forall t e r, In (t, e, r) (results s) -> r = e).

Lemma upd_same {A} (f : nat -> A) k v : upd f k v k = v.
Proof. unfold upd. now rewrite Nat.eqb_refl. Qed.
Lemma upd_other {A} (f : nat -> A) k v x : x <> k -> upd f k v x = f x.
Proof. unfold upd. intros H. destruct (Nat.eqb_spec x k); [contradiction|reflexivity]. Qed.

(* A step that leaves refs alone: t takes no new slot and writes only a buffer it holds or its private element, so
   what the other threads hold, and what they have written, is untouched. *)
Lemma inv_held s t st' bf pv rs :
  Inv s ->
  (forall i, holds st' i -> holds (th s t) i) ->
  (forall i, ~ holds (th s t) i -> bf i = buf s i) ->
  (forall t0, t0 <> t -> pv t0 = priv s t0) ->
  (forall i d todo, st' = Written (Slot i) d todo -> bf i = d) ->
  (forall d todo, st' = Written Priv d todo -> pv t = d) ->
  (forall t0 e r, In (t0, e, r) rs -> r = e) ->
  Inv {| refs := refs s; buf := bf; priv := pv; th := upd (th s) t st'; results := rs |}.
Proof.
  intros (Hex & Href & Hbuf & Hpriv & _) Hsub Hbf Hpv Hwb Hwp Hrs.
  assert (Hold : forall t0 i, holds (upd (th s) t st' t0) i -> holds (th s t0) i).
  { intros t0 i. destruct (Nat.eq_dec t0 t) as [->|Hne]; [rewrite upd_same; apply Hsub|now rewrite upd_other]. }
  split; [|split; [|split; [|split]]]; cbn [refs buf priv th results]; [| | | |exact Hrs].
  - intros t1 t2 i H1 H2. apply Hold in H1, H2. now apply (Hex t1 t2 i).
  - intros t0 i H. apply Hold in H. now apply (Href t0).
  - intros t0 i d todo. destruct (Nat.eq_dec t0 t) as [->|Hne]; [rewrite upd_same; apply Hwb|].
    rewrite upd_other by assumption. intros E. rewrite Hbf; [now apply (Hbuf t0 i d todo)|].
    (* t0 holds slot i, so t does not *)
    intros Hmine. apply Hne, (Hex t0 t i); [rewrite E; reflexivity|exact Hmine].
  - intros t0 d todo. destruct (Nat.eq_dec t0 t) as [->|Hne]; [rewrite upd_same; apply Hwp|].
    rewrite upd_other, Hpv by assumption. apply Hpriv.
Qed.

(* Get and Put: t sets refs[j] := b for a slot j that no other thread holds, and afterwards holds j (then b = 1) or
   nothing. *)
Lemma inv_slot s t st' j b :
  Inv s ->
  (forall t0, t0 <> t -> ~ holds (th s t0) j) ->
  (forall i, holds st' i -> i = j /\ b = 1) ->
  (forall w d todo, st' <> Written w d todo) ->
  Inv {| refs := upd (refs s) j b; buf := buf s; priv := priv s; th := upd (th s) t st'; results := results s |}.
Proof.
  intros (Hex & Href & Hbuf & Hpriv & Hres) Hfree Hst Hnw.
  split; [|split; [|split; [|split]]]; cbn [refs buf priv th results]; [| | | |exact Hres].
  - intros t1 t2 i. destruct (Nat.eq_dec t1 t) as [->|H1], (Nat.eq_dec t2 t) as [->|H2]; trivial;
      rewrite ?upd_same, ?upd_other by assumption.
    + intros Hi H. apply Hst in Hi as (-> & _). destruct (Hfree t2 H2 H).
    + intros H Hi. apply Hst in Hi as (-> & _). destruct (Hfree t1 H1 H).
    + apply Hex.
  - intros t0 i. destruct (Nat.eq_dec t0 t) as [->|Hne].
    + rewrite upd_same. intros Hi. apply Hst in Hi as (-> & ->). apply upd_same.
    + rewrite upd_other by assumption. intros Hi. rewrite upd_other; [now apply (Href t0)|].
      intros ->. exact (Hfree t0 Hne Hi).
  - intros t0 i d todo. destruct (Nat.eq_dec t0 t) as [->|Hne].
    + rewrite upd_same. intros E. destruct (Hnw _ _ _ E).
    + rewrite upd_other by assumption. apply Hbuf.
  - intros t0 d todo. destruct (Nat.eq_dec t0 t) as [->|Hne].
    + rewrite upd_same. intros E. destruct (Hnw _ _ _ E).
    + rewrite upd_other by assumption. apply Hpriv.
Qed.

Theorem step_inv s t c : Inv s -> Inv (step s t c).
Proof.
  intros Hinv. pose proof Hinv as (Hex & Href & Hbuf & Hpriv & Hres). unfold step.
  destruct (th s t) as [tries [|d todo]|[i|] d todo|[i|] d todo|[i|] todo|] eqn:Et.
  - apply inv_held; trivial; try discriminate. intros i [].
  - destruct (Nat.leb 16 tries); [|destruct (Nat.eqb_spec (refs s c) 0) as [Hfree|Hbusy]].
    + apply inv_held; trivial; try discriminate. intros i [].
    + (* CAS succeeds on a free slot: nobody held it *)
      apply inv_slot; [exact Hinv| | |discriminate].
      * intros t0 _ Hh. apply Href in Hh. congruence.
      * intros i <-. now split.
    + apply inv_held; trivial; try discriminate. intros i [].
  - (* write into held slot i *)
    apply inv_held; rewrite ?Et; trivial; try discriminate.
    + intros i0 Hne. apply upd_other. intros ->. now apply Hne.
    + intros i0 d0 todo0 [= <- <- _]. apply upd_same.
  - (* write into private element *)
    apply inv_held; trivial; try discriminate.
    + intros i [].
    + intros t0 Hne. now apply upd_other.
    + intros d0 todo0 [= <- _]. apply upd_same.
  - (* read from held slot: it holds what t wrote *)
    apply inv_held; rewrite ?Et; trivial; try discriminate.
    intros t0 e r [[= <- <- <-]|Hin]; [exact (Hbuf _ _ _ _ Et)|now apply (Hres t0)].
  - (* read from private *)
    apply inv_held; trivial; try discriminate.
    + intros i [].
    + intros t0 e r [[= <- <- <-]|Hin]; [exact (Hpriv _ _ _ Et)|now apply (Hres t0)].
  - (* put: t was the only holder of slot i *)
    apply inv_slot; [exact Hinv| |intros i0 []|discriminate].
    intros t0 Hne Hh. apply Hne, (Hex t0 t i Hh). rewrite Et. reflexivity.
  - apply inv_held; trivial; try discriminate. intros i [].
  - exact Hinv.
Qed.

Definition init (progs : tid -> list data) : sys :=
  {| refs := fun _ => 0; buf := fun _ => 0; priv := fun _ => 0; th := fun t => Idle 0 (progs t); results := [] |}.

Lemma init_inv progs : Inv (init progs).
Proof. repeat split; cbn; intros; try contradiction; try discriminate. Qed.

Lemma run_inv s sched : Inv s -> Inv (run s sched).
Proof.
  unfold run. revert s. induction sched as [|[t c] sched IH]; intros s Hs; cbn [fold_left]; [exact Hs|].
  apply IH, step_inv, Hs.
Qed.

(* C19 for the pools: under EVERY schedule each operation reads back exactly what it wrote,
   i.e. what it obtains running alone *)
Theorem schedule_independent progs sched t e r :
  In (t, e, r) (results (run (init progs) sched)) -> r = e.
Proof. destruct (run_inv _ sched (init_inv progs)) as (_ & _ & _ & _ & Hres). apply Hres. Qed.
Print Assumptions schedule_independent.

