(* Abstract/PathsAlias.v — Go slice/append aliasing model of Ctx.Path (ctx.go: WithPath appends to a slice carried
   by value in the context, so sibling contexts can share a backing array) and the marshal/unmarshal traversal that
   copies the slice header by value per child.  Theorem: every element is tapped with exactly its own path, for EVERY
   growth policy of append.  Model and proof together (this model is not executed by the correspondence; the tie to the
   code is the tap-log correspondence of the marshal/unmarshal families). *)
From Coq Require Import List Arith Lia Bool.
Import ListNotations.

(* Go slices over a store of backing arrays; path elements are nats *)
Record store := { cell : nat -> nat -> nat; next : nat }.
Record slice := { arr : nat; len : nat; cap : nat }.

Section Paths.
Variable grow : nat -> nat.                       (* capacity chosen by growslice when length n+1 is needed *)
Hypothesis grow_ok : forall n, n < grow n.

Definition write (f : nat -> nat -> nat) a i x : nat -> nat -> nat :=
  fun b j => if (Nat.eqb b a && Nat.eqb j i)%bool then x else f b j.

(* Go's append(s, x): in place when there is room, else copy into a fresh array *)
Definition append (st : store) (s : slice) (x : nat) : store * slice :=
  if len s <? cap s then
    ({| cell := write (cell st) (arr s) (len s) x; next := next st |},
     {| arr := arr s; len := S (len s); cap := cap s |})
  else
    let a' := next st in
    ({| cell := fun b j => if Nat.eqb b a' then (if j <? len s then cell st (arr s) j else if Nat.eqb j (len s) then x else 0)
                           else cell st b j;
        next := S a' |},
     {| arr := a'; len := S (len s); cap := grow (len s) |}).

Definition read (st : store) (s : slice) : list nat := map (cell st (arr s)) (seq 0 (len s)).

Inductive tree := Node (children : list (nat * tree)).

Section tree_ind2.
  Variable P : tree -> Prop.
  Hypothesis HN : forall cs, Forall (fun c => P (snd c)) cs -> P (Node cs).
  Fixpoint tree_ind2 (t : tree) : P t :=
    match t with Node cs => HN cs ((fix go l : Forall (fun c => P (snd c)) l :=
       match l with [] => Forall_nil _ | c :: r => Forall_cons _ (tree_ind2 (snd c)) (go r) end) cs) end.
End tree_ind2.

(* the traversal: the context (slice header) is copied by value for every child: ctx.WithPath(label) *)
Fixpoint visit (st : store) (p : slice) (t : tree) {struct t} : store * list (list nat) :=
  match t with
  | Node cs =>
      let tap := read st p in
      let '(st', taps) :=
        (fix kids (st : store) (l : list (nat * tree)) : store * list (list nat) :=
           match l with
           | [] => (st, [])
           | (lab, c) :: r =>
               let '(st1, p1) := append st p lab in
               let '(st2, t1) := visit st1 p1 c in
               let '(st3, t2) := kids st2 r in
               (st3, t1 ++ t2)
           end) st cs in
      (st', tap :: taps)
  end.

(* the loop over the children under its own name; [visit_node] keeps the copy in step with [visit] *)
Definition kids (p : slice) :=
  fix kids (st : store) (l : list (nat * tree)) : store * list (list nat) :=
    match l with
    | [] => (st, [])
    | (lab, c) :: r =>
        let '(st1, p1) := append st p lab in
        let '(st2, t1) := visit st1 p1 c in
        let '(st3, t2) := kids st2 r in
        (st3, t1 ++ t2)
    end.
Lemma visit_node st p cs : visit st p (Node cs) = let '(st', taps) := kids p st cs in (st', read st p :: taps).
Proof. reflexivity. Qed.

(* specification: every element is tapped with its true path, in pre-order *)
Fixpoint paths (pi : list nat) (t : tree) {struct t} : list (list nat) :=
  match t with
  | Node cs => pi :: (fix go l := match l with [] => [] | (lab, c) :: r => paths (pi ++ [lab]) c ++ go r end) cs
  end.
Definition kpaths (pi : list nat) :=
  fix go (l : list (nat * tree)) := match l with [] => [] | (lab, c) :: r => paths (pi ++ [lab]) c ++ go r end.
Lemma paths_node pi cs : paths pi (Node cs) = pi :: kpaths pi cs.
Proof. reflexivity. Qed.

(* frame: a traversal started with slice p only writes array (arr p) at indices >= len p, or fresh arrays *)
Definition frame (st st' : store) (a n : nat) : Prop :=
  next st <= next st' /\
  forall b j, b < next st -> (b <> a \/ j < n) -> cell st' b j = cell st b j.

Definition wf (st : store) (p : slice) : Prop := arr p < next st /\ len p <= cap p.

Lemma frame_refl st a n : frame st st a n.
Proof. split; [lia|auto]. Qed.

Lemma frame_trans st1 st2 st3 a n a2 n2 :
  frame st1 st2 a n -> frame st2 st3 a2 n2 ->
  (a2 = a /\ n <= n2 \/ next st1 <= a2) ->
  frame st1 st3 a n.
Proof.
  intros [H1 F1] [H2 F2] Hrel. split; [lia|]. intros b j Hb Hc.
  rewrite F2; [apply F1; assumption|lia|].
  destruct Hrel as [[-> Hn]|Hfresh]; [destruct Hc; [left; assumption|right; lia] | left; lia].
Qed.

Lemma read_ext st st' p : (forall j, j < len p -> cell st' (arr p) j = cell st (arr p) j) -> read st' p = read st p.
Proof.
  intros H. unfold read. apply map_ext_in. intros j Hj. apply in_seq in Hj. apply H. lia.
Qed.

Lemma read_frame st st' a n h : frame st st' a n -> arr h < next st -> (arr h <> a \/ len h <= n) ->
  read st' h = read st h.
Proof.
  intros [_ F] Hh Hc. apply read_ext. intros j Hj. apply F; [exact Hh|].
  destruct Hc; [left; assumption|right; lia].
Qed.

Lemma wf_mono st st' q : wf st q -> next st <= next st' -> wf st' q.
Proof. intros [Ha Hl] Hn. split; [lia|exact Hl]. Qed.

Lemma frame_own st st' p : wf st p -> frame st st' (arr p) (len p) -> wf st' p /\ read st' p = read st p.
Proof.
  intros Hwf Hf. split; [apply (wf_mono st); [exact Hwf|apply Hf]|].
  apply (read_frame _ _ _ _ _ Hf); [apply Hwf|right; lia].
Qed.

Lemma frame_seq st1 st2 st3 a n : frame st1 st2 a n -> frame st2 st3 a n -> frame st1 st3 a n.
Proof. intros H1 H2. apply (frame_trans _ _ _ _ _ _ _ H1 H2). left. split; [reflexivity|lia]. Qed.

Lemma append_spec st p x st1 p1 : wf st p -> append st p x = (st1, p1) ->
  wf st1 p1 /\ read st1 p1 = read st p ++ [x] /\ len p1 = S (len p) /\
  frame st st1 (arr p) (len p) /\ (arr p1 = arr p \/ next st <= arr p1).
Proof.
  intros [Ha Hl]. unfold append. destruct (len p <? cap p) eqn:E.
  - apply Nat.ltb_lt in E. intros [= <- <-]. cbn [arr len cap cell next].
    split; [split; cbn; lia|]. split; [|split; [reflexivity|split; [split; [cbn; lia|]|now left]]].
    + unfold read. cbn [arr len cell]. rewrite seq_S, map_app. cbn [map Nat.add]. f_equal.
      * apply map_ext_in. intros j Hj. apply in_seq in Hj. unfold write.
        rewrite Nat.eqb_refl. cbn [andb]. destruct (Nat.eqb_spec j (len p)); [lia|reflexivity].
      * unfold write. now rewrite !Nat.eqb_refl.
    + intros b j Hb Hc. cbn [cell]. unfold write.
      destruct (Nat.eqb_spec b (arr p)); cbn [andb]; [|reflexivity].
      destruct (Nat.eqb_spec j (len p)); [lia|reflexivity].
  - apply Nat.ltb_ge in E. intros [= <- <-]. cbn [arr len cap cell next].
    pose proof (grow_ok (len p)).
    split; [split; cbn; lia|]. split; [|split; [reflexivity|split; [split; [cbn; lia|]|right; cbn; lia]]].
    + unfold read. cbn [arr len cell]. rewrite seq_S, map_app. cbn [map Nat.add]. f_equal.
      * apply map_ext_in. intros j Hj. apply in_seq in Hj. rewrite Nat.eqb_refl.
        destruct (Nat.ltb_spec j (len p)); [reflexivity|lia].
      * rewrite Nat.eqb_refl. destruct (Nat.ltb_spec (len p) (len p)); [lia|]. now rewrite Nat.eqb_refl.
    + intros b j Hb Hc. cbn [cell]. destruct (Nat.eqb_spec b (next st)); [lia|reflexivity].
Qed.

Lemma append_full st p x st1 p1 : cap p <= len p -> append st p x = (st1, p1) ->
  arr p1 = next st /\ cap p1 = grow (len p) /\
  next st <= next st1 /\ forall b j, b < next st -> cell st1 b j = cell st b j.
Proof.
  unfold append. intros Hfull. destruct (Nat.ltb_spec (len p) (cap p)); [lia|]. intros [= <- <-].
  cbn [arr cap next cell]. repeat split; [lia|]. intros b j Hb. destruct (Nat.eqb_spec b (next st)); [lia|reflexivity].
Qed.

Definition visit_ok (t : tree) : Prop :=
  forall st p pi, wf st p -> read st p = pi ->
    let '(st', taps) := visit st p t in
    taps = paths pi t /\ frame st st' (arr p) (len p).

Lemma kids_ok p pi : forall cs, Forall (fun c => visit_ok (snd c)) cs ->
  forall st, wf st p -> read st p = pi ->
    let '(st', taps) := kids p st cs in
    taps = kpaths pi cs /\ frame st st' (arr p) (len p).
Proof.
  induction 1 as [|[lab c] r Hc _ IH]; intros st Hwf Hr; cbn [kids kpaths].
  - split; [reflexivity|apply frame_refl].
  - destruct (append st p lab) as [st1 p1] eqn:Ea.
    destruct (append_spec st p lab st1 p1 Hwf Ea) as (Hwf1 & Hr1 & Hlen1 & Hf1 & Harr1).
    specialize (Hc st1 p1 (pi ++ [lab]) Hwf1 ltac:(rewrite Hr1, Hr; reflexivity)). cbn [snd] in Hc.
    destruct (visit st1 p1 c) as [st2 t1]. destruct Hc as [-> Hf2].
    assert (Hf12 : frame st st2 (arr p) (len p)).
    { eapply frame_trans; [exact Hf1|exact Hf2|]. destruct Harr1 as [->|Hfresh]; [left; split; [reflexivity|lia]|right; assumption]. }
    destruct (frame_own st st2 p Hwf Hf12) as [Hwf2 Hr2]. rewrite Hr in Hr2.
    specialize (IH st2 Hwf2 Hr2). destruct (kids p st2 r) as [st3 t2]. destruct IH as [-> Hf3].
    split; [reflexivity|exact (frame_seq _ _ _ _ _ Hf12 Hf3)].
Qed.

Theorem visit_all_ok : forall t, visit_ok t.
Proof.
  induction t as [cs IH] using tree_ind2. intros st p pi Hwf Hr.
  rewrite visit_node, paths_node.
  pose proof (kids_ok p pi cs IH st Hwf Hr) as Hk.
  destruct (kids p st cs) as [st' taps]. destruct Hk as [-> Hf].
  split; [|assumption]. rewrite Hr. reflexivity.
Qed.

(* C17: starting from the empty path, every element is tapped with exactly its own path,
   whatever capacities append chooses *)
Definition st0 : store := {| cell := fun _ _ => 0; next := 1 |}.
Definition p0 : slice := {| arr := 0; len := 0; cap := 0 |}.
Lemma wf_root : wf st0 p0.
Proof. split; cbn; lia. Qed.
Corollary taps_are_true_paths t : snd (visit st0 p0 t) = paths [] t.
Proof.
  pose proof (visit_all_ok t st0 p0 [] wf_root eq_refl) as H.
  destruct (visit st0 p0 t) as [st' taps]. now destruct H.
Qed.
End Paths.
Print Assumptions taps_are_true_paths.
Check taps_are_true_paths.

