(* C20 — JSON token source mirrors the JSON document.  encoding/json's tokenizer is a contract (json_tokens: the delimiters, keys, strings, booleans, null and number texts of the AST in document order); DecodeJson's token map is mirrored by json_map / decode_json.  Agreement of the unmarshalled value with encoding/json.Unmarshal on the same target has two halves: the reference decoding jdec (Spec/JsonDecode.v) is compared by the harness with the real encoding/json on every generated document (the oracle the property names); that unmarshalling the mirroring stream computes jdec, the laws of jdec, and the integer range of literals are proved here (Proofs/JsonDecodeP.v, JsonLawsP.v, JsonP.v). *)
From SbModel Require Import Model.Json Proofs.JsonP.
Local Open Scope N_scope.

(* decoding a JSON text yields the token stream that mirrors it: arrays/objects as brackets, keys and strings as string tokens with their exact text, true/false as bool tokens, null as Nil, numbers as literal tokens carrying their source text *)
Theorem c20_mirror j :
  decode_json (json_tokens j) = (mirror j, ENone).
Proof. exact (decode_json_mirror j). Qed.

Theorem c20_mirror_map j :
  json_map (json_tokens j) = (mirror j, ENone).
Proof. exact (json_map_mirror j). Qed.

(* several top-level values, as encoding/json's tokenizer accepts them *)
Theorem c20_several_documents js :
  decode_json (flat_map json_tokens js) = (flat_map mirror js, ENone).
Proof. exact (decode_json_app js). Qed.

(* a document that ends inside a container is an error ... *)
Theorem c20_truncated ts :
  (0 < jdepth 0 ts)%Z ->
  (forall t, In t ts -> exists tk, json_map_tok t = inl tk) ->
  snd (decode_json ts) = EEnd.
Proof. exact (decode_json_truncated ts). Qed.

(* ... for EVERY cut point inside a container document: never a shorter successful stream *)
Theorem c20_truncated_document j k :
  is_container j -> (0 < k < length (json_tokens j))%nat ->
  snd (decode_json (firstn k (json_tokens j))) = EEnd.
Proof. exact (decode_json_truncated_doc j k). Qed.

Theorem c20_mirror_wf j :
  wf_json j -> Forall (fun t => wf_token t = true) (mirror j).
Proof. exact (mirror_tokens_wf j). Qed.

(* an integer literal is accepted exactly when it fits the target's width (no silent wrap-around), as the standard decoder does *)
Theorem c20_literal_int_range pf w s z :
  parse_int 64 s = Some z ->
  convert_literal pf (TInt w) s =
  if in_irange w z then Ok (T (kind_of_int w) (VI w z)) else Err EParse.
Proof. exact (literal_int_iff_range pf w s z). Qed.

Theorem c20_literal_uint_range pf w s n :
  parse_uint 64 s = Some n ->
  convert_literal pf (TUint w) s =
  if in_urange w n then Ok (T (kind_of_uint w) (VU w n)) else Err EParse.
Proof. exact (literal_uint_iff_range pf w s n). Qed.

Theorem c20_literal_not_int pf w s :
  parse_int 64 s = None -> convert_literal pf (TInt w) s = Err EParse.
Proof. exact (literal_int_not_int64 pf w s). Qed.

(* ---- the second sentence: the value.  Spec/JsonDecode.v defines, by recursion on the DOCUMENT, the value a JSON
   decoder gives for bool / integer / float / string / slice / struct / pointer targets (jdec: null leaves the
   position, other documents reach through the pointer levels, arrays append, objects assign their members by
   exact exported name in document order, unknown names skipped or - strict - rejected); the correspondence
   family jdec compares it with the real encoding/json on every generated document.  Unmarshalling the
   mirroring stream computes exactly that value - and fails exactly when it fails, with the same error. ---- *)
From SbModel Require Import Spec.JsonDecode Proofs.UnmarshalP Proofs.JsonDecodeP.

Theorem c20_unmarshal_is_reference_decoding : forall pf o R t cur j rest,
  jtarget t = true ->
  exists f0, forall f, (f0 <= f)%nat ->
    unm pf f o R t cur (mirror j ++ rest) =
    match jdec pf o t cur j with Ok v => Ok (v, rest) | Err e => Err e | OutOfFuel => OutOfFuel end.
Proof. exact unm_mirror_jdec. Qed.

(* the whole pipeline on a document: DecodeJson, then Unmarshal into a zero target *)
Theorem c20_document_into_zero_target : forall pf o R t j,
  jtarget t = true ->
  exists f0, forall f, (f0 <= f)%nat ->
    decode_json (json_tokens j) = (mirror j, ENone) /\
    unm pf f o R t (zero t) (mirror j) =
    match jdec pf o t (zero t) j with Ok v => Ok (v, []) | Err e => Err e | OutOfFuel => OutOfFuel end.
Proof.
  intros pf o R t j Ht. destruct (unm_mirror_jdec_doc pf o R t j Ht) as (f0 & H).
  exists f0. intros f Hf. split; [exact (decode_json_mirror j) | exact (H f Hf)].
Qed.

Theorem c20_reference_decoding_total : forall pf o t cur j, jdec pf o t cur j <> OutOfFuel.
Proof. exact jdec_never_out_of_fuel. Qed.

(* a member of an object that the target does not know is skipped whole, whatever it contains *)
Theorem c20_unknown_member_skipped : forall j rest, skip_value 0 (mirror j ++ rest) = Ok rest.
Proof. exact skip_value_mirror. Qed.

Print Assumptions c20_mirror.
Print Assumptions c20_mirror_map.
Print Assumptions c20_several_documents.
Print Assumptions c20_truncated.
Print Assumptions c20_truncated_document.
Print Assumptions c20_mirror_wf.
Print Assumptions c20_literal_int_range.
Print Assumptions c20_literal_uint_range.
Print Assumptions c20_literal_not_int.
Print Assumptions c20_unmarshal_is_reference_decoding.
Print Assumptions c20_document_into_zero_target.
Print Assumptions c20_reference_decoding_total.
Print Assumptions c20_unknown_member_skipped.

(* ---- laws of the reference decoding that users of JSON rely on, transported to the unmarshaller (Proofs/JsonLawsP.v):
   an accepted object does not depend on the order of two adjacent members with different names; without the strict
   option a member the target does not know changes nothing, wherever it stands and whatever it holds; with the strict
   option it is rejected ---- *)
From SbModel Require Import Spec.Conform Proofs.JsonLawsP.

Theorem c20_object_member_order : forall pf o R t cur l1 m1 m2 l2 v rest,
  jtarget t = true -> wf_ty t = true -> fst m1 <> fst m2 ->
  (exists f0, forall f, (f0 <= f)%nat ->
     unm pf f o R t cur (mirror (JObj (l1 ++ m1 :: m2 :: l2)) ++ rest) = Ok (v, rest)) ->
  exists f0, forall f, (f0 <= f)%nat ->
     unm pf f o R t cur (mirror (JObj (l1 ++ m2 :: m1 :: l2)) ++ rest) = Ok (v, rest).
Proof. exact unm_json_member_order. Qed.

Theorem c20_unknown_member_changes_nothing : forall pf o R t cur l1 name x l2 n b fs rest,
  jtarget t = true ->
  ptr_strip t = (n, b) -> underlying b = TStruct fs -> find_field name fs 0 = None -> strict o = false ->
  exists f0, forall f, (f0 <= f)%nat ->
    unm pf f o R t cur (mirror (JObj (l1 ++ (name, x) :: l2)) ++ rest) =
    unm pf f o R t cur (mirror (JObj (l1 ++ l2)) ++ rest).
Proof. exact unm_json_unknown_member. Qed.

Theorem c20_strict_unknown_member_rejected : forall pf o R t cur l1 name x l2 n b fs rest,
  jtarget t = true ->
  ptr_strip t = (n, b) -> underlying b = TStruct fs -> find_field name fs 0 = None -> strict o = true ->
  existsb (bytes_eqb name) (depr_of b) = false ->
  (exists v, jdec pf o t cur (JObj l1) = Ok v) ->
  exists f0, forall f, (f0 <= f)%nat ->
    unm pf f o R t cur (mirror (JObj (l1 ++ (name, x) :: l2)) ++ rest) = Err EUnknownField.
Proof. exact unm_json_strict_unknown_member. Qed.

Print Assumptions c20_object_member_order.
Print Assumptions c20_unknown_member_changes_nothing.
Print Assumptions c20_strict_unknown_member_rejected.
