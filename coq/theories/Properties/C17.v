(* C17 — Reported paths identify the element being processed.
   The hazard is physical: Ctx.Path is a slice extended with `append` on a by-value context, so
   sibling contexts can share a backing array.  Abstract/PathsAlias.v models exactly that
   (slices as (array, len, cap) over a store; append in place when there is room, else copy to
   a fresh array of ANY larger capacity) and the traversal that copies the slice header per
   child.  Which path each element of a typed value is marshalled under is Model/MarshalTaps.v,
   tied to the code by the tap-log correspondence; what unmarshal taps, and which path its
   errors carry, is the executable model Model/UnmarshalPaths.v, compared with the code on
   every run.  The theorems over the three (Abstract/PathsAlias.v, Proofs/PathsP.v,
   Proofs/UnmarshalPathsP.v) are restated below. *)
From Coq Require Import List Arith Lia.
From SbModel Require Import Abstract.PathsAlias.
Import ListNotations.

(* Go's append: the result reads old ++ [x]; only cells (arr p, >= len p) or fresh arrays are
   written (the frame) *)
Theorem c17_append_spec (grow : nat -> nat) (grow_ok : forall n, n < grow n) st p x st1 p1 :
  wf st p -> append grow st p x = (st1, p1) ->
  wf st1 p1 /\ read st1 p1 = read st p ++ [x] /\ len p1 = S (len p) /\
  frame st st1 (arr p) (len p) /\ (arr p1 = arr p \/ next st <= arr p1).
Proof. exact (append_spec grow grow_ok st p x st1 p1). Qed.

(* sibling elements never observe each other's path: a traversal started with path slice p
   hands out true paths and writes only inside its own frame *)
Theorem c17_siblings_isolated (grow : nat -> nat) (grow_ok : forall n, n < grow n) t st p pi :
  wf st p -> read st p = pi ->
  let '(st', taps) := visit grow st p t in
  taps = paths pi t /\ frame st st' (arr p) (len p).
Proof. exact (visit_all_ok grow grow_ok t st p pi). Qed.

(* every element is tapped with exactly its own path, whatever capacities append chooses,
   however deep or wide the value *)
Theorem c17_taps_are_true_paths (grow : nat -> nat) (grow_ok : forall n, n < grow n) t :
  snd (visit grow st0 p0 t) = paths [] t.
Proof. exact (taps_are_true_paths grow grow_ok t). Qed.

Print Assumptions c17_append_spec.
Print Assumptions c17_siblings_isolated.
Print Assumptions c17_taps_are_true_paths.

(* ---- restated from Proofs/PathsP.v (statements printed by Coq, see tools/genmod.py) ---- *)

From SbModel Require Import Proofs.PathsP.
Module Snapshots.
Import PathsP.AliasP.

(* a path that was reported stays what it was: the COPY an error carries (snapshot) is the true path whatever is processed afterwards (`later`: any sequence of appends / traversals from the parent's or the child's slice) *)
Theorem c17_snapshot_stable :
  forall grow : nat -> nat,
         (forall n : nat, n < grow n) ->
         forall (st : PathsAlias.store) (p : PathsAlias.slice) (pi : list nat) (x : nat)
           (st1 : PathsAlias.store) (p1 : PathsAlias.slice),
         PathsAlias.wf st p ->
         PathsAlias.read st p = pi ->
         PathsAlias.append grow st p x = (st1, p1) ->
         let e := snapshot st1 p1 in
         forall st' : PathsAlias.store, later grow (p :: p1 :: nil) st1 st' -> e = (pi ++ x :: nil)%list.
Proof. exact snapshot_stable. Qed.

(* why the copy is needed: a kept slice HEADER of a child context is rewritten by the next sibling's append when the parent path has spare capacity (len 3, cap 4, doubling growth) - the defect a change that keeps views instead of copies introduces *)
Theorem c17_view_refuted :
  exists
           (grow : nat -> nat) (st : PathsAlias.store) (p : PathsAlias.slice) (pi : list nat)
         (x y : nat) (st1 : PathsAlias.store) (p1 : PathsAlias.slice) (st2 : PathsAlias.store)
         (p2 : PathsAlias.slice),
           (forall n : nat, n < grow n) /\
           PathsAlias.wf st p /\
           PathsAlias.read st p = pi /\
           x <> y /\
           PathsAlias.append grow st p x = (st1, p1) /\
           PathsAlias.append grow st1 p y = (st2, p2) /\
           later grow (p :: p1 :: nil) st1 st2 /\
           snapshot st1 p1 = (pi ++ x :: nil)%list /\
           view p1 st1 = (pi ++ x :: nil)%list /\
           view p1 st2 = (pi ++ y :: nil)%list /\ view p1 st2 <> view p1 st1.
Proof. exact view_refuted. Qed.

(* and when it would be harmless: a parent path without spare capacity *)
Theorem c17_view_stable_when_full :
  forall grow : nat -> nat,
         (forall n : nat, n < grow n) ->
         forall (st : PathsAlias.store) (p : PathsAlias.slice) (x : nat) (st1 : PathsAlias.store)
           (p1 : PathsAlias.slice),
         PathsAlias.wf st p ->
         PathsAlias.len p = PathsAlias.cap p ->
         PathsAlias.append grow st p x = (st1, p1) ->
         forall st' : PathsAlias.store, later grow (p :: p1 :: nil) st1 st' -> view p1 st' = view p1 st1.
Proof. exact view_stable_when_full. Qed.

Theorem c17_view_stable_own :
  forall grow : nat -> nat,
         (forall n : nat, n < grow n) ->
         forall (st st' : PathsAlias.store) (p : PathsAlias.slice),
         PathsAlias.wf st p -> later grow (p :: nil) st st' -> view p st' = view p st.
Proof. exact view_stable_own. Qed.

(* the same on a whole traversal: the taps SAW the true paths, the headers read at the end do not show them *)
Theorem c17_hdrs_refuted :
  exists (grow : nat -> nat) (t : PathsAlias.tree),
           (forall n : nat, n < grow n) /\
           (let
            '(st', hs) := visit_h grow PathsAlias.st0 PathsAlias.p0 t in
             snd (PathsAlias.visit grow PathsAlias.st0 PathsAlias.p0 t) =
             (nil :: (1 :: nil) :: (1 :: 2 :: nil) :: (1 :: 3 :: nil) :: nil)%list /\
             List.map (fun h : PathsAlias.slice => PathsAlias.read st' h) hs =
             (nil :: (1 :: nil) :: (1 :: 3 :: nil) :: (1 :: 3 :: nil) :: nil)%list /\
             List.map (fun h : PathsAlias.slice => PathsAlias.read st' h) hs <> PathsAlias.paths nil t).
Proof. exact hdrs_refuted. Qed.

(* several documents processed one after the other from the same base context: every run's taps are the true paths of its own tree *)
Theorem c17_runs_taps_true_paths :
  forall grow : nat -> nat,
         (forall n : nat, n < grow n) ->
         forall (ts : list PathsAlias.tree) (st : PathsAlias.store) (p : PathsAlias.slice) (pi : list nat),
         PathsAlias.wf st p ->
         PathsAlias.read st p = pi ->
         let
         '(st', tapss) := runs grow st p ts in
          tapss = List.map (PathsAlias.paths pi) ts /\
          PathsAlias.frame st st' (PathsAlias.arr p) (PathsAlias.len p).
Proof. exact runs_taps_true_paths. Qed.

(* each run reports what it reports alone *)
Theorem c17_runs_independent :
  forall grow : nat -> nat,
         (forall n : nat, n < grow n) ->
         forall (ts : list PathsAlias.tree) (st : PathsAlias.store) (p : PathsAlias.slice),
         PathsAlias.wf st p ->
         snd (runs grow st p ts) = List.map (fun t : PathsAlias.tree => snd (PathsAlias.visit grow st p t)) ts.
Proof. exact runs_independent. Qed.

End Snapshots.

From SbModel Require Import Proofs.PathsP.
Module MarshalTaps.
Import PathsP.TapsP.

(* the tap log of the marshal model (Model/MarshalTaps.v, compared with the code's tap log on every run) is exactly the declarative path of every element in pre-order (paths_of: struct fields by name in declaration order, unexported ones skipped; items by index; map entries by key in marshalled order; pointers and interfaces add nothing; tuple results by index) - for every value whose maps have pairwise distinct key streams (maps_ok) *)
Theorem c17_marshal_taps_are_paths :
  forall (o : Types.copts) (t : Types.ty) (v : Types.gval) (pi : list MarshalTaps.pelem),
         maps_ok t v = true -> MarshalTaps.mtaps o t v pi = paths_of o t v pi.
Proof. exact marshal_taps_are_paths. Qed.

Theorem c17_marshal_taps_are_paths_no_maps :
  forall (o : Types.copts) (t : Types.ty) (v : Types.gval) (pi : list MarshalTaps.pelem),
         no_maps v = true -> MarshalTaps.mtaps o t v pi = paths_of o t v pi.
Proof. exact marshal_taps_are_paths_no_maps. Qed.

(* the domain edge: two keys with equal key streams (+0 / -0) - the same edge as c08_tied_keys_edge; the tap cases of the harness exclude tied keys *)
Theorem c17_marshal_taps_tied_keys_edge :
  exists (o : Types.copts) (t : Types.ty) (v : Types.gval),
           Conform.has_type t v = true /\
           maps_ok t v = false /\ MarshalTaps.mtaps o t v nil <> paths_of o t v nil.
Proof. exact marshal_taps_are_paths_refuted. Qed.

Theorem c17_root_tap_path :
  forall (o : Types.copts) (t : Types.ty) (v : Types.gval) (pi : list MarshalTaps.pelem),
         exists tl : list (list MarshalTaps.pelem * BinNums.N),
           MarshalTaps.mtaps o t v pi = ((pi, MarshalTaps.tap_kind t) :: tl)%list.
Proof. exact root_tap_path. Qed.

Theorem c17_taps_extend_root :
  forall (o : Types.copts) (t : Types.ty) (v : Types.gval) (pi : list MarshalTaps.pelem)
           (tp : MarshalTaps.tap),
         maps_ok t v = true ->
         List.In tp (MarshalTaps.mtaps o t v pi) -> exists s : list MarshalTaps.pelem, fst tp = (pi ++ s)%list.
Proof. exact taps_extend_root. Qed.

(* no two elements under different path elements share a path *)
Theorem c17_sibling_taps_disjoint :
  forall (o : Types.copts) (pi : list MarshalTaps.pelem) (e1 e2 : MarshalTaps.pelem)
           (t1 : Types.ty) (v1 : Types.gval) (t2 : Types.ty) (v2 : Types.gval) (a b : MarshalTaps.tap),
         e1 <> e2 ->
         maps_ok t1 v1 = true ->
         maps_ok t2 v2 = true ->
         List.In a (MarshalTaps.mtaps o t1 v1 (pi ++ e1 :: nil)) ->
         List.In b (MarshalTaps.mtaps o t2 v2 (pi ++ e2 :: nil)) -> fst a <> fst b.
Proof. exact sibling_taps_disjoint. Qed.

(* one tap per element *)
Theorem c17_taps_count :
  forall (o : Types.copts) (t : Types.ty) (v : Types.gval) (pi : list MarshalTaps.pelem),
         maps_ok t v = true -> length (MarshalTaps.mtaps o t v pi) = vsize (elements o t v).
Proof. exact taps_count. Qed.

End MarshalTaps.

Print Assumptions Snapshots.c17_snapshot_stable.
Print Assumptions Snapshots.c17_view_refuted.
Print Assumptions Snapshots.c17_view_stable_when_full.
Print Assumptions Snapshots.c17_view_stable_own.
Print Assumptions Snapshots.c17_hdrs_refuted.
Print Assumptions Snapshots.c17_runs_taps_true_paths.
Print Assumptions Snapshots.c17_runs_independent.
Print Assumptions MarshalTaps.c17_marshal_taps_are_paths.
Print Assumptions MarshalTaps.c17_marshal_taps_are_paths_no_maps.
Print Assumptions MarshalTaps.c17_marshal_taps_tied_keys_edge.
Print Assumptions MarshalTaps.c17_root_tap_path.
Print Assumptions MarshalTaps.c17_taps_extend_root.
Print Assumptions MarshalTaps.c17_sibling_taps_disjoint.
Print Assumptions MarshalTaps.c17_taps_count.

(* ---- unmarshalling: the executable model of UnmarshalValue with its context path made explicit
   (Model/UnmarshalPaths.v: result, path carried by the error, tap log of TapUnmarshal), compared with the
   code on every run (family utaps: value / error class / error path / tap log) ---- *)
Module UnmarshalPaths.
From SbModel Require Import Spec.UnmarshalPathsSpec Proofs.UnmarshalP Proofs.UnmarshalPathsP.
Local Open Scope N_scope.

(* forgetting paths and log gives the unmarshal model of C05 / C01 back: every theorem about `unm` (acceptance,
   termination, round trip) speaks about the value part of `unmp` *)
Theorem c17_unmarshal_paths_erase : forall pf f o R t cur ts p,
  erase (unmp pf f o R t cur ts p) = unm pf f o R t cur ts.
Proof. exact unmp_erase. Qed.

(* paths are relative to the context: running under a longer context path prefixes every reported path
   (taps and error) and changes nothing else *)
Theorem c17_unmarshal_paths_shift : forall pf f o R t cur ts q p,
  unmp pf f o R t cur ts (q ++ p) =
  (shift_res q (fst (unmp pf f o R t cur ts p)), shift_log q (snd (unmp pf f o R t cur ts p))).
Proof. exact unmp_shift. Qed.

(* every tap path and the path an error carries extend the path of the context the run started under *)
Theorem c17_unmarshal_paths_extend : forall pf f o R t cur ts p,
  Forall (fun e => exists s, fst (fst e) = p ++ s) (snd (unmp pf f o R t cur ts p)) /\
  (forall e ep, fst (unmp pf f o R t cur ts p) = PErr e ep -> exists s, ep = p ++ s).
Proof. exact unmp_paths_extend. Qed.

(* the first token is offered under the context path itself, with the kind of the target *)
Theorem c17_unmarshal_first_tap : forall pf f o R t cur tk rest p,
  exists l, snd (unmp pf (S f) o R t cur (tk :: rest) p) = (p, kind tk, rk_of t) :: l.
Proof. exact unmp_first_tap. Qed.

(* THE PATH STATEMENT for unmarshalling: reading the canonical stream of a value v : t back into a zero t
   (whatever follows it in the stream, whatever the registry and the options) succeeds with the normal form of v
   and announces, in order, exactly the declarative paths of its elements (Spec/UnmarshalPathsSpec.v upaths:
   each element once under its own path; a pointee under the pointer's path; item i under path ++ [i]; a field's
   name under the struct's path and its value under path ++ [name]) - on the universe without maps, interfaces,
   funcs and registered names *)
Theorem c17_unmarshal_roundtrip_paths : forall pf o R t v ts rest f p,
  wf_ty t = true -> simple_ty t = true -> noreg_ty t = true ->
  has_type t v = true -> no_ptr_to_nil v = true ->
  marshal default_opts t v = Ok ts -> (2 * vsize v < f)%nat ->
  fst (unmp pf f o R t (zero t) (ts ++ rest) p) = POk (normal t v, rest) /\
  log_paths (snd (unmp pf f o R t (zero t) (ts ++ rest) p)) = upaths t v p.
Proof. exact unmp_roundtrip_paths. Qed.

End UnmarshalPaths.

Print Assumptions UnmarshalPaths.c17_unmarshal_paths_erase.
Print Assumptions UnmarshalPaths.c17_unmarshal_paths_shift.
Print Assumptions UnmarshalPaths.c17_unmarshal_paths_extend.
Print Assumptions UnmarshalPaths.c17_unmarshal_first_tap.
Print Assumptions UnmarshalPaths.c17_unmarshal_roundtrip_paths.
